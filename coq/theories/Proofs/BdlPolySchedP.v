(* Polygons and year schedules: the written forms the theorems of C18 speak of, and what makes a count an item
   the list reader recovers *)
From Coq Require Import NArith Bool List Lia.
From CTE Require Import Model.Bdl Model.BdlDoc Proofs.ListP Proofs.BdlP.
From CTE Require Import Model.BdlTyped Model.BdlTypedDb Proofs.BdlTypedDbP.
Import ListNotations.
Local Open Scope N_scope.

(* a vertex as written: "( x, y )" *)
Definition point_text (lead g1 g2 trail : str) (x y : str) : str :=
  40 :: lead ++ x ++ g1 ++ 44 :: g2 ++ y ++ trail ++ [41].
Definition coord_ok (t : str) : bool :=
  is_number t && negb (has_char 44 t) &&
  match t with c :: _ => negb (is_pc c) && negb (is_pc (last t 0)) | [] => false end.

(* "V" ++ i: the key under which polygon_from looks for the i-th vertex *)
Definition vkey (i : nat) : str := 86 :: nat_str 5 i.

(* a count of the MONTH and DAY lists of a year schedule: digits only, within u32 *)
Definition count_ok (d : str) : bool := negb (is_empty d) && all_digits d && (digits_val d 0 <=? 4294967295).
Lemma digit_facts c : is_digit c = true -> is_ws c = false /\ is_pc c = false /\ (c =? 43) = false.
Proof.
  unfold is_digit. intros [H1%N.leb_le H2%N.leb_le]%andb_prop.
  assert (Hne : forall k, (k < 48 \/ 57 < k) -> (c =? k) = false) by (intros k Hk; apply N.eqb_neq; lia).
  assert (Hle : forall k, 57 < k -> (k <=? c) = false) by (intros k Hk; apply N.leb_gt; lia).
  repeat split.
  - unfold is_ws. rewrite !Hne by lia. rewrite (Hle 8192) by lia.
    assert (E : (c <=? 13) = false) by (apply N.leb_gt; lia). rewrite E. rewrite !andb_false_r. reflexivity.
  - unfold is_pc. rewrite !Hne by lia. reflexivity.
  - apply Hne. lia.
Qed.
Lemma edges_all (q p : N -> bool) s : (forall c, q c = true -> p c = false) -> s <> [] -> forallb q s = true -> edges p s = true.
Proof.
  intros Hq Hne H. rewrite forallb_forall in H. destruct s as [|x r]; [contradiction|].
  unfold edges. rewrite !Hq; [reflexivity | | apply H; left; reflexivity].
  apply H. rewrite (app_removelast_last 0 Hne) at 2. apply in_or_app. right. left. reflexivity.
Qed.

(* digits are neither white space, nor commas, nor what is stripped around a list, and u32::from_str takes them *)
Lemma count_item d : count_ok d = true -> item_ok d = true /\ parse_u32 d = Some (digits_val d 0).
Proof.
  unfold count_ok. intros [[Hne Hd]%andb_prop Hmax]%andb_prop. destruct d as [|c r]; [discriminate|]. split.
  - apply andb_true_intro. split; [|apply andb_true_intro; split].
    + apply (edges_all is_digit is_ws); [intros x Hx; apply (digit_facts x Hx) | discriminate | exact Hd].
    + apply negb_true_iff, (has_not is_digit 44 (c :: r) eq_refl Hd).
    + apply (edges_all is_digit is_pc); [intros x Hx; apply (digit_facts x Hx) | discriminate | exact Hd].
  - pose proof Hd as [(_ & _ & Hp)%digit_facts _]%andb_prop.
    (* no '+' to take off: the match on the numeral 43 reduces only on the constructors of c *)
    assert (E : match c :: r with 43 :: r0 => r0 | _ => c :: r end = c :: r).
    { destruct c as [|p]; [reflexivity|]. do 6 (destruct p as [p|p|]; try reflexivity). discriminate Hp. }
    unfold parse_u32. rewrite E. cbn [is_empty orb]. rewrite Hd, Hmax. reflexivity.
Qed.

Lemma counts_parsed ds : forallb count_ok ds = true ->
  all_some (map parse_u32 ds) = Some (map (fun d => digits_val d 0) ds).
Proof.
  induction ds as [|d r IH]; [reflexivity|]. cbn [forallb map all_some]. intros [Hd Hr]%andb_prop.
  rewrite (proj2 (count_item d Hd)), (IH Hr). reflexivity.
Qed.
Lemma map_trim_parse items : forallb count_ok items = true ->
  all_some (map (fun p => parse_u32 (trim p)) items) = Some (map (fun d => digits_val d 0) items).
Proof.
  intros H. rewrite <- (map_map trim parse_u32), map_trim_id; [exact (counts_parsed items H)|].
  revert H. apply forallb_impl. intros d [[He _]%andb_prop _]%count_item. exact He.
Qed.
