(* Proofs about Model/BdlTypedDb.v: the list readers recover every item of a written list, whatever its length
   and spacing; the entry of the construction database found by name is the last one written. *)
From Coq Require Import NArith QArith Bool List String.
From CTE Require Import Model.Bdl Model.BdlDoc Proofs.ListP Proofs.BdlP.
From CTE Require Import Model.BdlTyped Model.BdlTypedDb Proofs.BdlTypedP.
Import ListNotations.
Local Open Scope N_scope.

(* trim_parens, the model of trim_matches(' ', '(', ')'), is BdlP.trim_while is_pc by conversion *)
Lemma trim_parens_wrap w1 c w2 : forallb is_pc w1 = true -> forallb is_pc w2 = true -> edges is_pc c = true ->
  trim_parens (w1 ++ c ++ w2) = c.
Proof. exact (trim_while_wrap is_pc w1 c w2). Qed.
Lemma trim_parens_all w : forallb is_pc w = true -> trim_parens w = [].
Proof. exact (trim_while_all is_pc w). Qed.

Lemma spaces_pc l : forallb (N.eqb 32) l = true -> forallb is_pc l = true.
Proof. apply forallb_impl. intros c <-%N.eqb_eq. reflexivity. Qed.
Lemma spaces_ws l : forallb (N.eqb 32) l = true -> all_wsb l = true.
Proof. apply forallb_impl. intros c <-%N.eqb_eq. reflexivity. Qed.

(* A written list is list_text lead trail g1 g2 items: "(", blanks, the items with g1 "," g2 between them (g1, g2 any
   white space), blanks, ")". All three readers first strip blanks and parentheses from both ends: list_text_body.
   f32vec and u32vec then split at the commas and trim the pieces, which gives back items that are item_ok (list_items);
   f32vec wants every piece a number, u32vec reads every piece as a count (BdlPolySchedP.counts_parsed). namesvec
   splits at the double quotes instead, so a name may hold commas: every second piece is a name, the pieces between
   are separators and go as "a comma or empty" (quote_items). *)
Lemma list_text_body lead trail g1 g2 items :
  forallb (N.eqb 32) lead = true -> forallb (N.eqb 32) trail = true -> items <> [] -> forallb (edges is_pc) items = true ->
  trim_parens (list_text lead trail g1 g2 items) = join (g1 ++ 44 :: g2) items.
Proof.
  intros Hl Ht Hne He. apply (trim_parens_wrap (40 :: lead) _ (trail ++ [41])).
  - cbn [forallb]. rewrite (spaces_pc lead Hl). reflexivity.
  - rewrite forallb_app, (spaces_pc trail Ht). reflexivity.
  - apply edges_join; assumption.
Qed.

(* the separators seen from the first item: an induction over the items that follow needs no case for the last *)
Lemma join_flat_map sep (a : str) r : join sep (a :: r) = a ++ flat_map (app sep) r.
Proof.
  revert a. induction r as [|b r IH]; intros a; [symmetry; apply app_nil_r|].
  rewrite join_cons, IH by discriminate. cbn [flat_map]. rewrite <- app_assoc. reflexivity.
Qed.

(* an item as the comma-separated readers want it: the white space around it, the commas beside it and the
   parentheses and blanks around the list can be told from it *)
Definition item_ok (t : str) : bool := edges_ok t && (negb (has 44 t) && edges is_pc t).

Lemma comma_items g1 g2 r : all_wsb g1 = true -> all_wsb g2 = true -> forallb item_ok r = true ->
  forall w t, all_wsb w = true -> item_ok t = true ->
  map trim (split_on 44 (w ++ t ++ flat_map (app (g1 ++ 44 :: g2)) r)) = t :: r.
Proof.
  intros H1 H2. induction r as [|u r IH]; cbn [forallb flat_map]; intros Hr w t Hw [Ht [Hc%negb_true_iff _]%andb_prop]%andb_prop.
  - rewrite split_on_no; [cbn [map]; rewrite trim_wrap by (reflexivity || assumption); reflexivity|].
    apply has_false_forallb. rewrite !has_app, (has_not is_ws 44 w), Hc by (reflexivity || assumption). reflexivity.
  - apply andb_prop in Hr as [Hu Hr].
    replace (w ++ t ++ ((g1 ++ 44 :: g2) ++ u) ++ flat_map (app (g1 ++ 44 :: g2)) r)
      with ((w ++ t ++ g1) ++ 44 :: (g2 ++ u ++ flat_map (app (g1 ++ 44 :: g2)) r))
      by (rewrite <- !app_assoc; reflexivity).
    rewrite split_on_app; [cbn [map]; rewrite trim_wrap, IH by assumption; reflexivity|].
    apply has_false_forallb. rewrite !has_app, (has_not is_ws 44 w), (has_not is_ws 44 g1), Hc by (reflexivity || assumption). reflexivity.
Qed.

Theorem list_items lead trail g1 g2 ts :
  forallb (N.eqb 32) lead = true -> forallb (N.eqb 32) trail = true -> all_wsb g1 = true -> all_wsb g2 = true ->
  ts <> [] -> forallb item_ok ts = true ->
  map trim (split_on 44 (trim_parens (list_text lead trail g1 g2 ts))) = ts.
Proof.
  intros Hl Ht H1 H2 Hne Hok. rewrite list_text_body; try assumption.
  - destruct ts as [|t r]; [contradiction|]. apply andb_prop in Hok as [Ht0 Hr].
    rewrite join_flat_map. exact (comma_items g1 g2 r H1 H2 Hr [] t eq_refl Ht0).
  - revert Hok. apply forallb_impl. intros t [_ [_ H]%andb_prop]%andb_prop. exact H.
Qed.

(* num_item_ok t is is_number t && item_ok t but for the brackets *)
Lemma num_item_parts t : num_item_ok t = true -> is_number t = true /\ item_ok t = true.
Proof. unfold num_item_ok. rewrite <- !andb_assoc. apply andb_prop. Qed.

Definition keep_name (v : str) : bool := negb (str_eqb v [44]) && negb (is_empty v).
Lemma quoted_app n s : quoted n ++ s = 34 :: n ++ 34 :: s.
Proof. unfold quoted. cbn [app]. rewrite <- app_assoc. reflexivity. Qed.

(* a name up to its closing quote is kept, the separator up to the next opening quote is dropped *)
Lemma name_kept n rest : name_item_ok n = true ->
  filter keep_name (map trim (split_on 34 (n ++ 34 :: rest))) = n :: filter keep_name (map trim (split_on 34 rest)).
Proof.
  intros [[He Hq%negb_true_iff]%andb_prop Hc]%andb_prop.
  rewrite split_on_app by (apply has_false_forallb, Hq). cbn [map filter]. rewrite (trim_id n He).
  unfold keep_name at 1. rewrite Hc. destruct n; [discriminate | reflexivity].
Qed.
Lemma separator_dropped g1 g2 rest : all_wsb g1 = true -> all_wsb g2 = true ->
  filter keep_name (map trim (split_on 34 ((g1 ++ 44 :: g2) ++ 34 :: rest))) = filter keep_name (map trim (split_on 34 rest)).
Proof.
  intros H1 H2. change (g1 ++ 44 :: g2) with (g1 ++ [44] ++ g2). rewrite split_on_app.
  - cbn [map filter]. rewrite (trim_wrap g1 [44] g2 H1 H2 eq_refl). reflexivity.
  - apply has_false_forallb. rewrite !has_app, (has_not is_ws 34 g1), (has_not is_ws 34 g2) by (reflexivity || assumption). reflexivity.
Qed.
Lemma quote_items g1 g2 r : all_wsb g1 = true -> all_wsb g2 = true -> forallb name_item_ok r = true ->
  forall n, name_item_ok n = true ->
  filter keep_name (map trim (split_on 34 (n ++ 34 :: flat_map (app (g1 ++ 44 :: g2)) (map quoted r)))) = n :: r.
Proof.
  intros H1 H2. induction r as [|m r IH]; cbn [forallb map flat_map]; intros Hr n Hn; rewrite (name_kept n _ Hn); [reflexivity|].
  apply andb_prop in Hr as [Hm Hr]. rewrite <- app_assoc, quoted_app, separator_dropped by assumption. f_equal. exact (IH Hr m Hm).
Qed.

Lemma quoted_edges ns : forallb (edges is_pc) (map quoted ns) = true.
Proof.
  induction ns as [|n r IH]; [reflexivity|]. cbn [map forallb]. rewrite IH. unfold quoted, edges.
  rewrite app_comm_cons, last_last. reflexivity.
Qed.

(* an air gap keeps the thickness in its name, every other layer the written one *)
Local Open Scope string_scope.
Theorem airgap_thickness name t :
  (prefixb airgap_prefix name = false -> fixed_thickness name t = NTok t) /\
  (prefixb airgap_prefix name = true -> suffixb (s2l " 2 cm") name = true -> suffixb (s2l " 1 cm") name = false ->
   fixed_thickness name t = NConst (2 # 100)).
Proof.
  unfold fixed_thickness. split.
  - intros H. rewrite H. reflexivity.
  - intros H1 H2 H3. rewrite H1, H3, H2. reflexivity.
Qed.

Lemma last_by_app {A} (name : A -> str) n (l1 l2 : list A) x :
  last_by name n l2 = Some x -> last_by name n (l1 ++ l2) = Some x.
Proof. intros H. induction l1 as [|a l1 IH]; [exact H|]. cbn [app last_by]. rewrite IH. reflexivity. Qed.
Lemma last_by_none {A} (name : A -> str) n (l : list A) :
  forallb (fun y => negb (str_eqb (name y) n)) l = true -> last_by name n l = None.
Proof.
  induction l as [|y l IH]; [reflexivity|]. cbn [forallb last_by]. intros [Hy%negb_true_iff Hr]%andb_prop.
  rewrite (IH Hr), Hy. reflexivity.
Qed.
(* C18_last_definition_wins for any named entry: wallcons_lookup finds constructions as well as layers by last_by *)
Theorem last_definition_wins {A} (name : A -> str) (l1 l2 : list A) x :
  forallb (fun y => negb (str_eqb (name y) (name x))) l2 = true ->
  last_by name (name x) (l1 ++ x :: l2) = Some x.
Proof. intros H. apply last_by_app. cbn [last_by]. rewrite (last_by_none _ _ _ H), str_eqb_refl. reflexivity. Qed.
