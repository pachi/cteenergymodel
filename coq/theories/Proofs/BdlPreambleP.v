(* Proofs about the LIDER preamble (sanitize in Model/Bdl.v): the header sanitize puts in front of the loose
   attribute lines makes them the printed block "PARTELIDER" = PARTELIDER, so the preamble is read back by
   the lemmas of BdlP about printed documents. *)
From Coq Require Import NArith List String.
From CTE Require Import Model.Bdl Model.BdlDoc Proofs.BdlP.
From CTEGen Require Import BdlTypes.
Local Open Scope string_scope.
Import ListNotations.
Local Open Scope N_scope.

(* the loose LIDER preamble: attribute lines before the general data block *)
Definition pre_lines (pre : list aattr) : list str := flat_map attr_lines pre.
Definition partelider_block (pre : list aattr) : block :=
  mkBlock BT_ParteLider (s2l "PARTELIDER") None (attrs_result pre).

(* Its header line is partelider_head, it is well formed when the attributes are, and it stands for
   partelider_block pre without changing the parents of what follows: all three by evaluation of the closed parts. *)
Definition pre_ablock (pre : list aattr) : ablock := mkAB (s2l "PARTELIDER") [32] [32] (s2l "PARTELIDER") pre.

Lemma pre_header pre : header_line (pre_ablock pre) = partelider_head.
Proof. vm_compute. reflexivity. Qed.

Lemma wf_pre_ablock pre : wf_block (pre_ablock pre) = forallb wf_attr pre.
Proof. reflexivity. Qed.

Lemma expected_preamble pre d : expected_from init_ps (pre_ablock pre :: d) =
  match expected_from init_ps d with Some l => Some (partelider_block pre :: l) | None => None end.
Proof. reflexivity. Qed.

(* the block texts of a sanitized file with a preamble *)
Lemma preamble_texts pre d : pre <> [] -> forallb wf_attr pre = true -> wf_doc d = true ->
  block_texts (partelider_head ++ [nl] ++ (join [nl] (pre_lines pre) ++ [nl]) ++ [nl; 46; 46; nl] ++ join [nl] (doc_lines d)) =
  map body_text (pre_ablock pre :: d).
Proof.
  intros Hne Hwfp Hwf. destruct (body_text_facts (pre_ablock pre) Hwfp) as (He & Hd & _).
  cbn [map]. rewrite <- (block_texts_doc d [nl] (or_intror eq_refl) Hwf), <- (block_texts_cons [] _ [nl] _ eq_refl eq_refl He Hd).
  unfold body_text, body_lines. rewrite pre_header. change (flat_map attr_lines (ab_attrs (pre_ablock pre))) with (pre_lines pre).
  rewrite join_cons by (destruct pre; [contradiction | discriminate]).
  (* as variables: with partelider_head left a constant the comparison of the two texts evaluates it, for minutes *)
  generalize partelider_head (join [nl] (pre_lines pre)) (join [nl] (doc_lines d)). intros P J D.
  cbn [app]. rewrite <- !app_assoc. reflexivity.
Qed.
