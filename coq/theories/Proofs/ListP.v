(* Facts about the standard list functions that several proof files share. *)
From Coq Require Import Bool List Lia Permutation.
Import ListNotations.

Lemma find_hd_filter {A} (f : A -> bool) l : find f l = hd_error (filter f l).
Proof. induction l as [|a l IH]; [reflexivity|]. cbn. destruct (f a); [reflexivity | exact IH]. Qed.

Lemma find_app {A} (f : A -> bool) l1 l2 :
  find f (l1 ++ l2) = match find f l1 with Some x => Some x | None => find f l2 end.
Proof. induction l1 as [|a l IH]; [reflexivity|]. cbn. destruct (f a); [reflexivity | exact IH]. Qed.

Lemma existsb_find {A} (f : A -> bool) l : existsb f l = match find f l with Some _ => true | None => false end.
Proof. induction l as [|a l IH]; [reflexivity|]. cbn. destruct (f a); [reflexivity | exact IH]. Qed.

Lemma filter_rev {A} (f : A -> bool) l : filter f (rev l) = rev (filter f l).
Proof.
  induction l as [|a l IH]; [reflexivity|]. cbn [rev filter]. rewrite filter_app, IH. cbn [filter].
  destruct (f a); [reflexivity | apply app_nil_r].
Qed.

Lemma find_rev_unique {A} (f : A -> bool) l e : filter f l = [e] -> find f (rev l) = Some e.
Proof. intros H. rewrite find_hd_filter, filter_rev, H. reflexivity. Qed.

Lemma filter_filter {A} (p q : A -> bool) l : filter p (filter q l) = filter (fun x => p x && q x) l.
Proof.
  induction l as [|a l IH]; [reflexivity|]. cbn [filter]. destruct (q a); cbn [filter]; rewrite IH.
  - rewrite andb_true_r. reflexivity.
  - rewrite andb_false_r. reflexivity.
Qed.

Lemma filter_id {A} (f : A -> bool) l : forallb f l = true -> filter f l = l.
Proof. induction l as [|a l IH]; [reflexivity|]. intros [Ha Hl]%andb_prop. cbn. rewrite Ha, (IH Hl). reflexivity. Qed.

Lemma filter_app_mid {A} (f : A -> bool) l1 x l2 : f x = false -> filter f (l1 ++ x :: l2) = filter f (l1 ++ l2).
Proof. intros H. rewrite !filter_app. cbn [filter]. rewrite H. reflexivity. Qed.

Lemma filter_map_comm {A B} (g : A -> B) (p : B -> bool) (q : A -> bool) l :
  (forall x, p (g x) = q x) -> filter p (map g l) = map g (filter q l).
Proof.
  intros H. induction l as [|a l IH]; [reflexivity|]. cbn [map filter]. rewrite H.
  destruct (q a); cbn [map]; rewrite IH; reflexivity.
Qed.

Lemma filter_length_le {A} (f : A -> bool) l : length (filter f l) <= length l.
Proof. induction l as [|a l IH]; cbn; [lia|]. destruct (f a); cbn; lia. Qed.

Lemma filter_length_mono {A} (f g : A -> bool) l :
  (forall x, f x = true -> g x = true) -> length (filter f l) <= length (filter g l).
Proof.
  intros H. induction l as [|a l IH]; cbn; [lia|].
  destruct (f a) eqn:Ef; [rewrite (H a Ef); cbn; lia|]. destruct (g a); cbn; lia.
Qed.

Lemma forallb_impl {A} (f g : A -> bool) l : (forall x, f x = true -> g x = true) -> forallb f l = true -> forallb g l = true.
Proof. intros Hi. rewrite !forallb_forall. intros H x Hx. apply Hi, H, Hx. Qed.

Lemma forallb_rev {A} (f : A -> bool) l : forallb f l = true -> forallb f (rev l) = true.
Proof. rewrite !forallb_forall. intros H x Hx. apply H, in_rev, Hx. Qed.

Lemma forallb_map {A B} (f : B -> bool) (g : A -> B) l : forallb f (map g l) = forallb (fun x => f (g x)) l.
Proof. induction l as [|a l IH]; [reflexivity|]. cbn. rewrite IH. reflexivity. Qed.

Lemma forallb_flat_map {A B} (f : B -> bool) (g : A -> list B) l :
  forallb (fun a => forallb f (g a)) l = true -> forallb f (flat_map g l) = true.
Proof.
  induction l as [|a l IH]; [reflexivity|]. intros [H1 H2]%andb_prop. cbn. rewrite forallb_app, H1, (IH H2). reflexivity.
Qed.

Lemma nth_error_forallb {A} (p : A -> bool) l n :
  n < length l -> forallb p l = true -> exists a, nth_error l n = Some a /\ p a = true.
Proof.
  intros Hn Hp. destruct (nth_error l n) as [a|] eqn:E; [|apply nth_error_None in E; lia].
  exists a. split; [reflexivity|]. rewrite forallb_forall in Hp. apply Hp. eapply nth_error_In, E.
Qed.

Lemma map_fixed {A} (f : A -> A) (p : A -> bool) l : (forall x, p x = true -> f x = x) -> forallb p l = true -> map f l = l.
Proof.
  intros Hf. induction l as [|a l IH]; [reflexivity|]. intros [Ha Hl]%andb_prop. cbn. rewrite (Hf a Ha), (IH Hl). reflexivity.
Qed.

Lemma forallb_incl {A} (f : A -> bool) l l' : incl l' l -> forallb f l = true -> forallb f l' = true.
Proof. intros Hi H. apply forallb_forall. intros x Hx. apply (proj1 (forallb_forall f l) H), Hi, Hx. Qed.

(* a partial function that is defined on the images of l yields one element per member *)
Lemma flat_map_some {A B C} (h : A -> B) (f : B -> option C) (g : A -> C) l :
  (forall x, In x l -> f (h x) = Some (g x)) ->
  flat_map (fun y => match f y with Some p => [p] | None => [] end) (map h l) = map g l.
Proof.
  induction l as [|a l IH]; intros H; [reflexivity|]. cbn [map flat_map].
  rewrite (H a), IH by auto using in_eq, in_cons. reflexivity.
Qed.

(* a property that joins keep on either side holds of a folded join as soon as it holds of the start or of a member *)
Lemma fold_join_has {A B} (join : B -> B -> B) (g : A -> B) (Q : B -> Prop) :
  (forall a b, Q a -> Q (join a b) /\ Q (join b a)) ->
  forall l b0, Q b0 \/ (exists e, In e l /\ Q (g e)) -> Q (fold_left (fun b e => join b (g e)) l b0).
Proof.
  intros HQ. induction l as [|a l IH]; intros b0 H; cbn [fold_left].
  - destruct H as [H|[e [[] _]]]. exact H.
  - apply IH. destruct H as [H|[e [[->|Hin] H]]]; [left; apply (HQ b0 (g a)), H | left; apply (HQ (g e) b0), H | right; exists e; auto].
Qed.

Lemma last_cons {A} (a : A) l : forall d, last (a :: l) d = last l a.
Proof.
  revert a. induction l as [|x l IH]; intros a d; [reflexivity|].
  change (last (a :: x :: l) d) with (last (x :: l) d). rewrite !IH. reflexivity.
Qed.

Lemma last_app_ne {A} (a b : list A) d : b <> [] -> last (a ++ b) d = last b d.
Proof.
  intros Hb. induction a as [|x a IH]; [reflexivity|]. cbn [app]. destruct (a ++ b) eqn:E; [|exact IH].
  apply app_eq_nil in E. destruct E as [_ E]. contradiction.
Qed.

Lemma last_map {A B} (f : A -> B) l d : last (map f l) (f d) = f (last l d).
Proof. induction l as [|a l IH]; [reflexivity|]. destruct l; [reflexivity|]. cbn [map last] in *. exact IH. Qed.

Lemma Forall_one {A} (P : A -> Prop) x : Forall P [x] <-> P x.
Proof. split; [apply Forall_inv | intros H; repeat constructor; exact H]. Qed.

Lemma perm_filter {A} (f : A -> bool) l l' : Permutation l l' -> Permutation (filter f l) (filter f l').
Proof.
  induction 1 as [|x l l' _ IH|x y l|l l' l'' _ IH1 _ IH2]; cbn [filter].
  - constructor.
  - destruct (f x); [constructor|]; exact IH.
  - destruct (f x), (f y); try apply Permutation_refl; constructor.
  - eapply Permutation_trans; eassumption.
Qed.

Lemma perm_flat_map {A B} (f g : A -> list B) l l' :
  Permutation l l' -> (forall x, In x l -> Permutation (f x) (g x)) -> Permutation (flat_map f l) (flat_map g l').
Proof.
  intros Hl H. rewrite <- Hl. clear Hl. induction l as [|a l IH]; cbn [flat_map]; [constructor|].
  apply Permutation_app; [apply H; left; reflexivity | apply IH; intros x Hx; apply H; right; exact Hx].
Qed.

Lemma partition_perm {A} (f : A -> bool) l l1 l2 : partition f l = (l1, l2) -> Permutation (l1 ++ l2) l.
Proof.
  revert l1 l2. induction l as [|a l IH]; intros l1 l2 H; cbn in H.
  - inversion H; subst. constructor.
  - destruct (partition f l) as [l1' l2'] eqn:E. specialize (IH l1' l2' eq_refl). destruct (f a); inversion H; subst.
    + cbn. constructor. exact IH.
    + apply Permutation_sym, Permutation_cons_app, Permutation_sym, IH.
Qed.
