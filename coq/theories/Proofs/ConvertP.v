(* What the C02 results (Properties/C02.v) use about Model/Convert.v: the steps a conversion that yields a model
   has passed (convert_ok) and what an accepted week or year schedule has found *)
From Coq Require Import NArith Bool List.
From CTE Require Import Model.Convert.
Import ListNotations.
Local Open Scope N_scope.

Lemma forallb_andb {A} (f g : A -> bool) l :
  forallb (fun x => f x && g x) l = forallb f l && forallb g l.
Proof.
  induction l as [|a l IH]; [reflexivity|]. cbn. rewrite IH.
  destruct (f a), (g a), (forallb f l); reflexivity.
Qed.

Lemma convert_ok b : convert b = COk ->
  parse_ok b = true /\ cons_step b = true /\ walls_step b = true /\ windows_wall_missing b = false /\
  sched_step b = SOk /\ loads_step b = true /\ thermostats_step b = true.
Proof.
  unfold convert.
  destruct (parse_ok b); [|discriminate]. destruct (cons_step b); [|discriminate].
  destruct (walls_step b); [|discriminate]. destruct (windows_wall_missing b); [discriminate|].
  destruct (sched_step b); try discriminate.
  destruct (loads_step b); [|discriminate]. destruct (thermostats_step b); [|discriminate].
  repeat split.
Qed.

Lemma first_bad_ok l : first_bad l = SOk -> forall r, In r l -> r = SOk.
Proof.
  unfold first_bad. destruct (find _ l) as [x|] eqn:E.
  - apply find_some in E as [_ Hx]. intros ->. discriminate Hx.
  - intros _ r Hin. pose proof (find_none _ _ E r Hin) as Hn. destruct r; (reflexivity || discriminate Hn).
Qed.

Lemma week_res_ok b w : week_res b w = SOk -> all_names_in (snd w) (d_days b) = true.
Proof.
  unfold week_res. destruct (snd w) as [|d [|d' r]].
  - cbn. discriminate.
  - destruct (nmem d (d_days b)) eqn:E; [|discriminate]. intros _. cbn. rewrite E. reflexivity.
  - destruct (Nat.eqb (length (d :: d' :: r)) 7%nat); [|discriminate].
    destruct (all_names_in (d :: d' :: r) (d_days b)); [reflexivity | discriminate].
Qed.

Lemma year_res_ok b y : year_res b y = SOk -> all_names_in (snd y) (map fst (d_weeks b)) = true.
Proof. unfold year_res. destruct (all_names_in (snd y) (map fst (d_weeks b))); [reflexivity | discriminate]. Qed.

(* a project whose one space names space / system conditions that are not defined: it converts all the same
   (C02_space_conds_refuted) *)
Definition wit : bdoc :=
  mkBDoc [mkBSpace 1 2 99 98] [] [] [2] [] [] [] [] [] [] [] [] [] [] [] 50.
