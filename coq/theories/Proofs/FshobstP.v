(* Proofs about Model/Fshobst.v: the sunlit fraction is antitone in the number of blocked points (hence in [0,1]);
   an hour's factor (f beam + diffuse) / (beam + diffuse) lies in [0,1] and is monotone in the sunlit fraction f. *)
From Coq Require Import ZArith QArith Bool List Lia Lqa.
From CTE Require Import Model.Aabb Model.Poly Model.Fshobst Proofs.NumP.
Local Open Scope Q_scope.

(* exact sunlit fraction (no margins) *)
Definition blocked_exact (cands : list occ) (d : vec3) (o : vec3) : bool :=
  existsb (fun c => ray_hits_poly (oc_pose c) (oc_poly c) (mkRay o d)) cands.
Definition count_blocked (cands : list occ) (origins : list vec3) (d : vec3) : nat :=
  length (filter (blocked_exact cands d) origins).
Definition sunlit_exact (cands : list occ) (origins : list vec3) (d : vec3) : Q :=
  sunlit_of (count_blocked cands origins d) (length origins).

Lemma sunlit_of_antitone b b' t : (b <= b')%nat -> (0 < t)%nat -> sunlit_of b' t <= sunlit_of b t.
Proof.
  intros Hb Ht. unfold sunlit_of. pose proof (inject_nat_pos t Ht). apply Qplus_le_r, Qopp_le_compat.
  apply Qdiv_le_compat_r; [lra | rewrite <- Zle_Qle; lia].
Qed.

Lemma sunlit_of_range b t : (b <= t)%nat -> (0 < t)%nat -> 0 <= sunlit_of b t <= 1.
Proof.
  (* antitone in the count: between its values at t, which is 0, and at 0, which is 1 *)
  intros Hb Ht. pose proof (sunlit_of_antitone b t t Hb Ht). pose proof (sunlit_of_antitone 0 b t (Nat.le_0_l b) Ht).
  assert (sunlit_of t t == 0 /\ sunlit_of 0 t == 1) as [E0 E1]
    by (pose proof (inject_nat_pos t Ht); unfold sunlit_of; split; field; lra).
  lra.
Qed.

(* a point that is blocked for sure (what the correspondence counts, Fshobst.blocked_bounds) stays so under a further obstacle *)
Theorem verdict_blocked_monotone c cands o d :
  point_verdict cands o d = Blocked -> point_verdict (c :: cands) o d = Blocked.
Proof.
  unfold point_verdict. cbn [map existsb].
  destruct (existsb _ (map _ cands)); [intros _; rewrite orb_true_r; reflexivity | destruct (forallb _ _); discriminate].
Qed.

Definition hour_sane (h : hour) : Prop := 0 <= hr_f h <= 1 /\ 0 <= hr_dir h /\ 0 <= hr_dif h /\ 0 < hr_dir h + hr_dif h.

Lemma hour_factor_range h : hour_sane h -> 0 <= hour_factor h <= 1.
Proof.
  intros [[F0 F1] [D0 [E0 S]]]. unfold hour_factor.
  split; [apply Qle_shift_div_l | apply Qle_shift_div_r]; nra.
Qed.

Definition same_weights (a b : hour) : Prop := hr_dir a == hr_dir b /\ hr_dif a == hr_dif b.

Lemma hour_factor_mono a b : same_weights a b -> 0 <= hr_dir a -> 0 < hr_dir a + hr_dif a -> hr_f a <= hr_f b ->
  hour_factor a <= hour_factor b.
Proof.
  intros [E1 E2] D S F. unfold hour_factor. rewrite <- E1, <- E2. apply Qdiv_le_compat_r; [lra | nra].
Qed.
