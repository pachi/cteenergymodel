(* Facts about the rational part of the U-value model (Model/UValue.v) *)
From Coq Require Import QArith List Lqa.
From CTE Require Import Base.Num Model.BModel Model.UValue Proofs.NumP.
Import ListNotations.
Local Open Scope Q_scope.

Lemma rsi_pos t : 0 < rsi t. Proof. destruct t; reflexivity. Qed.

(* more resistance, less transmittance *)
Lemma u_air_le r r' t : 0 <= r -> r <= r' -> u_air r' t <= u_air r t.
Proof. intros Hr Hle. unfold u_air, RSE. pose proof (rsi_pos t). apply inv_antitone; lra. Qed.

Theorem u_air_pos r t : 0 <= r -> 0 < u_air r t.
Proof. intros Hr. unfold u_air, RSE. pose proof (rsi_pos t). apply Qlt_shift_div_l; lra. Qed.

Lemma layer_r_nonneg db l x : 0 <= l_e l -> layer_r db l = Some x ->
  (forall mt rr v, get_material db (l_mat l) = Some mt -> m_props mt = Resistance rr v -> 0 <= rr) -> 0 <= x.
Proof.
  intros He H Hr. unfold layer_r in H. destruct (get_material db (l_mat l)) as [mt|]; [|discriminate].
  destruct (m_props mt) as [k d c v|rr v] eqn:Ep.
  - destruct (qltb_spec 0 k); [|discriminate]. injection H as <-. apply Qle_shift_div_l; lra.
  - injection H as <-. apply (Hr mt rr v eq_refl Ep).
Qed.

Fixpoint qlist_eqb (a b : list Q) : bool :=
  match a, b with [], [] => true | x :: a', y :: b' => qeqb x y && qlist_eqb a' b' | _, _ => false end.
