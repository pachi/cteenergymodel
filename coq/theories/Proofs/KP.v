(* What the C08 results (Properties/C08.v) use about the K model (Model/K.v); the boundary lemmas and with_walls
   also serve C09 and C10 *)
From Coq Require Import QArith List.
From CTE Require Import Base.Num Model.BModel Model.Props Model.K Proofs.ListP Proofs.NumP.
Import ListNotations.
Local Open Scope Q_scope.

Lemma is_ext_or_gnd_spec b : is_ext_or_gnd b = true <-> b = EXTERIOR \/ b = GROUND.
Proof. destruct b; cbn; intuition discriminate. Qed.
Lemma is_ext_spec b : is_ext b = true <-> b = EXTERIOR.
Proof. destruct b; cbn; intuition discriminate. Qed.

Definition total_a (p : eprops) : Q := items_a (opaque_items p) + items_a (window_items p).
Definition total_au (p : eprops) : Q :=
  items_au (opaque_items p) + items_au (window_items p) + tb_psil_sum (tbs_nonneg p).

Lemma K_value p : kd_K (K_model p) = if qltb (total_a p) (1 # 100) then 0 else total_au p / total_a p.
Proof. reflexivity. Qed.

Lemma kcat_cases c : c = KWalls \/ c = KRoofs \/ c = KFloors \/ c = KGround.
Proof. destruct c; auto. Qed.

(* f over Q * Q, not item: that is how items_a and items_au unfold, and lra compares atoms syntactically *)
Lemma opaque_by_cat (f : Q * Q -> Q) p :
  qsum (map f (opaque_items p)) ==
  qsum (map f (cat_items KWalls p)) + qsum (map f (cat_items KRoofs p)) + qsum (map f (cat_items KFloors p)) +
  qsum (map f (cat_items KGround p)).
Proof.
  unfold opaque_items, cat_items. rewrite !map_map.
  rewrite (qsum_classes (fun c w => kcat_eqb (wall_cat (snd w)) c) [KWalls; KRoofs; KFloors; KGround]).
  - cbn [map]. rewrite !qsum_cons, qsum_nil. ring.
  - intros w _. destruct (wall_cat (snd w)); reflexivity.
Qed.

Lemma tbs_of_nonneg k p : tbs_of k p = filter (fun t => tbkind_eqb (tp_kind t) k) (tbs_nonneg p).
Proof. symmetry. apply filter_filter. Qed.

Lemma tbs_by_kind (f : tbp -> Q) p :
  qsum (map f (tbs_nonneg p)) == qsum (map (fun k => qsum (map f (tbs_of k p))) all_tbkinds).
Proof.
  rewrite (qsum_classes (fun k t => tbkind_eqb (tp_kind t) k) all_tbkinds).
  - apply qsum_map_ext. intros k _. rewrite tbs_of_nonneg. reflexivity.
  - intros t _. destruct (tp_kind t); reflexivity.
Qed.

Lemma qmax_list_ub l m y : qmax_list l = Some m -> In y l -> y <= m.
Proof.
  destruct l as [|x r]; intros [= <-] [->|H]; [apply fold_qmax_ge | apply fold_qmax_ub, H].
Qed.
Lemma qmin_list_lb l m y : qmin_list l = Some m -> In y l -> m <= y.
Proof.
  destruct l as [|x r]; intros [= <-] [->|H]; [apply fold_qmin_le | apply fold_qmin_lb, H].
Qed.

Definition with_walls (p : eprops) ws := mkEProps (ep_global p) ws (ep_windows p) (ep_tbs p) (ep_wincons p) (ep_spaces p).
Definition with_tbs (p : eprops) ts := mkEProps (ep_global p) (ep_walls p) (ep_windows p) ts (ep_wincons p) (ep_spaces p).

(* K reads the walls only through the envelope set, the bridges only through those of non-negative length *)
Lemma K_model_envset p ws : filter env_wall ws = envset p -> K_model (with_walls p ws) = K_model p.
Proof.
  intros H. unfold K_model, opaque_items, cat_items, window_items.
  change (envset (with_walls p ws)) with (filter env_wall ws). rewrite H. reflexivity.
Qed.
Lemma K_model_nonneg p ts :
  filter (fun t => negb (qltb (tp_l t) 0)) (map snd ts) = tbs_nonneg p -> K_model (with_tbs p ts) = K_model p.
Proof.
  intros H. change (tbs_nonneg (with_tbs p ts) = tbs_nonneg p) in H.
  assert (Hk : forall k, tbs_of k (with_tbs p ts) = tbs_of k p) by (intros k; rewrite !tbs_of_nonneg, H; reflexivity).
  unfold K_model, all_tbkinds. cbn [map]. rewrite H, !Hk. reflexivity.
Qed.

Definition K_scalars (k : kdata) : list Q :=
  [kd_K k; kd_a k; kd_au k; kd_opaques_a k; kd_opaques_au k; kd_windows_a k; kd_windows_au k; kd_tbs_l k; kd_tbs_psil k].

Fixpoint qlist_eq (a b : list Q) : Prop :=
  match a, b with
  | [], [] => True
  | x :: a', y :: b' => x == y /\ qlist_eq a' b'
  | _, _ => False
  end.

(* the scalars depend on the props only through six sums, and respect == in each *)
Definition scalars_of_sums (oa oau wa wau tl tpl : Q) : list Q :=
  let a := oa + wa in let au := oau + wau + tpl in
  [if qltb a (1 # 100) then 0 else au / a; a; au; oa; oau; wa; wau; tl; tpl].

Lemma K_scalars_of_sums p :
  K_scalars (K_model p) =
  scalars_of_sums (items_a (opaque_items p)) (items_au (opaque_items p)) (items_a (window_items p))
    (items_au (window_items p)) (tb_l_sum (tbs_nonneg p)) (tb_psil_sum (tbs_nonneg p)).
Proof. reflexivity. Qed.

Lemma scalars_of_sums_eq oa oa' oau oau' wa wa' wau wau' tl tl' tpl tpl' :
  oa == oa' -> oau == oau' -> wa == wa' -> wau == wau' -> tl == tl' -> tpl == tpl' ->
  qlist_eq (scalars_of_sums oa oau wa wau tl tpl) (scalars_of_sums oa' oau' wa' wau' tl' tpl').
Proof.
  intros E1 E2 E3 E4 E5 E6. unfold scalars_of_sums. cbn [qlist_eq].
  assert (Ea : oa + wa == oa' + wa') by (rewrite E1, E3; reflexivity).
  assert (Eau : oau + wau + tpl == oau' + wau' + tpl') by (rewrite E2, E4, E6; reflexivity).
  rewrite <- (qltb_proper _ _ Ea _ _ (Qeq_refl _)). repeat split; try assumption.
  destruct (qltb (oa + wa) (1 # 100)); [reflexivity|]. rewrite Ea, Eau. reflexivity.
Qed.

(* ids renamed, as keys and as the windows' references to their walls: K only compares ids for equality *)
Definition rename_props (f : uuid -> uuid) (p : eprops) : eprops :=
  mkEProps (ep_global p)
    (map (fun w => (f (fst w), snd w)) (ep_walls p))
    (map (fun w => (f (fst w), let x := snd w in
       mkWinP (np_cons x) (f (np_wall x)) (np_orient x) (np_tilt x) (np_area x) (np_mult x) (np_bounds x)
              (np_tenv x) (np_u x) (np_uov x) (np_fsh x) (np_fshov x))) (ep_windows p))
    (map (fun t => (f (fst t), snd t)) (ep_tbs p)) (ep_wincons p) (ep_spaces p).
