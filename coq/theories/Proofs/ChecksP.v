(* What the C15 and C16 results use about the checker (Model/Checks.v): the declarative reading of its warnings
   (broken, closed_basic) and, for each kind of element, what check_wall / check_win / check_tb contain, when they
   are empty, and how often a warning occurs in them *)
From Coq Require Import QArith List.
From CTE Require Import Base.Num Model.BModel Model.Checks Proofs.NumP.
Import ListNotations.
Local Open Scope nat_scope.

Lemma mem_In x l : mem x l = true <-> In x l.
Proof.
  unfold mem. rewrite existsb_exists. split.
  - intros [y [Hy ->%N.eqb_eq]]. exact Hy.
  - intros H. exists x. split; [exact H | apply N.eqb_refl].
Qed.

Lemma mem_false_In x l : mem x l = false <-> ~ In x l.
Proof. rewrite <- mem_In. symmetry. apply not_true_iff_false. Qed.

(* Declarative specification: which (element, link) pairs are broken *)
Inductive broken (m : model) : uuid -> wkind -> Prop :=
| B_WallSpace w : In w (m_walls m) -> ~ In (w_space w) (space_ids m) -> broken m (w_id w) WallSpace
| B_WallCons w : In w (m_walls m) -> ~ In (w_cons w) (wallcons_ids m) -> broken m (w_id w) WallCons
| B_WallNext w n : In w (m_walls m) -> w_next w = Some n -> ~ In n (space_ids m) ->
                   broken m (w_id w) WallNext
| B_WinWall w : In w (m_windows m) -> ~ In (win_wall w) (wall_ids m) -> broken m (win_id w) WinWall
| B_WinCons w : In w (m_windows m) -> ~ In (win_cons w) (wincons_ids m) -> broken m (win_id w) WinCons
| B_Bridge t : In t (m_tbs m) -> (tb_l t < 0)%Q -> broken m (tb_id t) BridgeNeg.

(* closed model: nothing is broken *)
Definition closed_basic (m : model) : Prop :=
  (forall w, In w (m_walls m) -> In (w_space w) (space_ids m) /\ In (w_cons w) (wallcons_ids m) /\
                                 (forall n, w_next w = Some n -> In n (space_ids m))) /\
  (forall w, In w (m_windows m) -> In (win_wall w) (wall_ids m) /\ In (win_cons w) (wincons_ids m)) /\
  (forall t, In t (m_tbs m) -> ~ (tb_l t < 0)%Q).

(* The checker appends pieces that hold one warning or none. What such a piece contains: *)
Lemma in_if_else {A} (b : bool) (x y : A) : In x (if b then [] else [y]) <-> b = false /\ x = y.
Proof. destruct b; cbn; intuition congruence. Qed.

Lemma in_if_then {A} (b : bool) (x y : A) : In x (if b then [y] else []) <-> b = true /\ x = y.
Proof. destruct b; cbn; intuition congruence. Qed.

Lemma in_match_option {A B} (o : option A) (g : A -> list B) y :
  In y (match o with Some a => g a | None => [] end) <-> exists a, o = Some a /\ In y (g a).
Proof.
  destruct o as [a|]; split.
  - exists a. auto.
  - intros [? [[= <-] H]]. exact H.
  - intros [].
  - intros [? [[=] _]].
Qed.

Lemma in_check_wall m w p :
  In p (check_wall m w) <->
  (~ In (w_space w) (space_ids m) /\ p = (w_id w, WallSpace)) \/
  (~ In (w_cons w) (wallcons_ids m) /\ p = (w_id w, WallCons)) \/
  (exists n, w_next w = Some n /\ ~ In n (space_ids m) /\ p = (w_id w, WallNext)).
Proof.
  unfold check_wall. rewrite !in_app_iff, in_match_option. setoid_rewrite in_if_else.
  setoid_rewrite mem_false_In. reflexivity.
Qed.

Lemma in_check_win m w p :
  In p (check_win m w) <->
  (~ In (win_wall w) (wall_ids m) /\ p = (win_id w, WinWall)) \/
  (~ In (win_cons w) (wincons_ids m) /\ p = (win_id w, WinCons)).
Proof. unfold check_win. rewrite in_app_iff, !in_if_else, !mem_false_In. reflexivity. Qed.

Lemma in_check_tb t p : In p (check_tb t) <-> (tb_l t < 0)%Q /\ p = (tb_id t, BridgeNeg).
Proof. unfold check_tb. rewrite in_if_then, qltb_lt. reflexivity. Qed.

Lemma if_else_nil {A} (b : bool) (y : A) : (if b then [] else [y]) = [] <-> b = true.
Proof. destruct b; split; congruence. Qed.

Lemma if_then_nil {A} (b : bool) (y : A) : (if b then [y] else []) = [] <-> b = false.
Proof. destruct b; split; congruence. Qed.

Lemma match_option_nil {A B} (o : option A) (g : A -> list B) :
  match o with Some a => g a | None => [] end = [] <-> forall a, o = Some a -> g a = [].
Proof.
  destruct o as [a|]; split; [intros H ? [= <-]; exact H | intros H; apply H; reflexivity | discriminate | reflexivity].
Qed.

Lemma app_nil_iff {A} (l l' : list A) : l ++ l' = [] <-> l = [] /\ l' = [].
Proof. split; [apply app_eq_nil | intros [-> ->]; reflexivity]. Qed.

Lemma flat_map_nil {A B} (f : A -> list B) l : flat_map f l = [] <-> forall a, In a l -> f a = [].
Proof.
  induction l as [|a l IH]; cbn [flat_map]; [split; [intros _ ? [] | reflexivity]|].
  rewrite app_nil_iff, IH. split.
  - intros [Ha H] b [<-|Hb]; auto.
  - intros H. split; [|intros b Hb]; apply H; cbn; auto.
Qed.

Lemma check_wall_nil m w :
  check_wall m w = [] <->
  In (w_space w) (space_ids m) /\ In (w_cons w) (wallcons_ids m) /\
  (forall n, w_next w = Some n -> In n (space_ids m)).
Proof.
  unfold check_wall. rewrite !app_nil_iff, match_option_nil. setoid_rewrite if_else_nil.
  setoid_rewrite mem_In. reflexivity.
Qed.

Lemma check_win_nil m w :
  check_win m w = [] <-> In (win_wall w) (wall_ids m) /\ In (win_cons w) (wincons_ids m).
Proof. unfold check_win. rewrite app_nil_iff, !if_else_nil, !mem_In. reflexivity. Qed.

Lemma check_tb_nil t : check_tb t = [] <-> ~ (tb_l t < 0)%Q.
Proof. unfold check_tb. rewrite if_then_nil, <- not_true_iff_false, qltb_lt. reflexivity. Qed.

Theorem check_closed m : check m = [] <-> closed_basic m.
Proof.
  unfold check, closed_basic. rewrite !app_nil_iff, !flat_map_nil.
  setoid_rewrite check_wall_nil. setoid_rewrite check_win_nil. setoid_rewrite check_tb_nil. reflexivity.
Qed.

(* The conditions of `broken` as booleans, so that the elements with a given id and broken link can be counted *)
Definition wall_broken_b (m : model) (k : wkind) (w : wall) : bool :=
  match k with
  | WallSpace => negb (mem (w_space w) (space_ids m))
  | WallCons => negb (mem (w_cons w) (wallcons_ids m))
  | WallNext => match w_next w with Some n => negb (mem n (space_ids m)) | None => false end
  | _ => false
  end.
Definition win_broken_b (m : model) (k : wkind) (w : window) : bool :=
  match k with
  | WinWall => negb (mem (win_wall w) (wall_ids m))
  | WinCons => negb (mem (win_cons w) (wincons_ids m))
  | _ => false
  end.
Definition tb_broken_b (k : wkind) (t : tbridge) : bool :=
  match k with BridgeNeg => qltb (tb_l t) 0%Q | _ => false end.

Definition expected_count (m : model) (x : uuid) (k : wkind) : nat := (
  length (filter (fun w => N.eqb x (w_id w) && wall_broken_b m k w) (m_walls m)) +
  length (filter (fun w => N.eqb x (win_id w) && win_broken_b m k w) (m_windows m)) +
  length (filter (fun t => N.eqb x (tb_id t) && tb_broken_b k t) (m_tbs m)))%nat.

Lemma countw_app x a b : countw x (a ++ b) = (countw x a + countw x b)%nat.
Proof. unfold countw. rewrite filter_app, app_length. reflexivity. Qed.

Lemma countw_flat_map {A} x (f : A -> list warning) (g : A -> bool) l :
  (forall a, countw x (f a) = if g a then 1 else 0) ->
  countw x (flat_map f l) = length (filter g l).
Proof.
  intros H. induction l as [|a l IH]; [reflexivity|].
  cbn [flat_map filter]. rewrite countw_app, IH, H. destruct (g a); reflexivity.
Qed.

Lemma countw_check_wall m x k w :
  countw (x, k) (check_wall m w) = if N.eqb x (w_id w) && wall_broken_b m k w then 1 else 0.
Proof.
  unfold check_wall, countw, warning_eqb, wall_broken_b.
  destruct (mem (w_space w) (space_ids m)), (mem (w_cons w) (wallcons_ids m)), (w_next w) as [n|];
    try destruct (mem n (space_ids m)); destruct k; cbn; destruct (N.eqb x (w_id w)); reflexivity.
Qed.

Lemma countw_check_win m x k w :
  countw (x, k) (check_win m w) = if N.eqb x (win_id w) && win_broken_b m k w then 1 else 0.
Proof.
  unfold check_win, countw, warning_eqb, win_broken_b.
  destruct (mem (win_wall w) (wall_ids m)), (mem (win_cons w) (wincons_ids m)), k; cbn;
    destruct (N.eqb x (win_id w)); reflexivity.
Qed.

Lemma countw_check_tb x k t :
  countw (x, k) (check_tb t) = if N.eqb x (tb_id t) && tb_broken_b k t then 1 else 0.
Proof.
  unfold check_tb, countw, warning_eqb, tb_broken_b.
  destruct (qltb (tb_l t) 0%Q), k; cbn; destruct (N.eqb x (tb_id t)); reflexivity.
Qed.

Lemma warning_eqb_eq a b : warning_eqb a b = true <-> a = b.
Proof.
  destruct a as [x k], b as [y j]. unfold warning_eqb. cbn. rewrite andb_true_iff, N.eqb_eq. split.
  - intros [-> H]. destruct k, j; (reflexivity || discriminate H).
  - intros [= -> ->]. split; [reflexivity | destruct j; reflexivity].
Qed.

(* a non-empty filter has a member, and warning_eqb x holds of x only *)
Lemma countw_In x l : countw x l <> 0 -> In x l.
Proof.
  unfold countw. destruct (filter (warning_eqb x) l) as [|y r] eqn:E; [contradiction|]. intros _.
  assert (H : In y (filter (warning_eqb x) l)) by (rewrite E; left; reflexivity).
  apply filter_In in H as [H ->%warning_eqb_eq]. exact H.
Qed.
