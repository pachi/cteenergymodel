(* What the C01 results (Properties/C01.v) use about the two tools of Model/Cli.v *)
From Coq Require Import NArith List.
From CTE Require Import Model.Cli.

Lemma thor_file w j : w_lib w = LOk j -> r_file (thor_o w) = Some j /\ r_exit (thor_o w) = 0%N.
Proof. intros L. unfold thor_o. rewrite L. split; reflexivity. Qed.

(* the oracle rejects a run in which the library printed anything *)
Lemma agree_cli_noise j x noise :
  let r := hulc2model_cli (mkWorld (LOk j) (x :: noise) true) in
  agree_C01 (Cli (LOk j) (r_exit r) (docs_of (r_out r) (Some j)) j) = 2%N.
Proof. cbn. rewrite N.eqb_refl. destruct noise; reflexivity. Qed.
