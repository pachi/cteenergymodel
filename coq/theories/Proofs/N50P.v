(* What the C09 results (Properties/C09.v) share about the n50 model (Model/N50.v) *)
From Coq Require Import QArith List.
From CTE Require Import Base.Num Model.Props Model.N50 Proofs.KP.
Local Open Scope Q_scope.

(* the reference value does not depend on the blower-door branch *)
Lemma n50_ref_eq p :
  nd_n50_ref (N50_model p) =
  if qltb (1 # 1000) (gp_vol_net (ep_global p))
  then n50_coef * (n50_walls_a p * gp_co100 (ep_global p) + n50_windows_ca p) / gp_vol_net (ep_global p) else 0.
Proof.
  unfold N50_model. destruct (gp_n50test (ep_global p)); [destruct (qltb (1 # 1000) (n50_walls_a p))|]; reflexivity.
Qed.

(* n50 reads the walls only through those of the envelope in contact with outside air *)
Lemma N50_model_airset p ws : filter air_wall ws = airset p -> N50_model (with_walls p ws) = N50_model p.
Proof.
  intros H. unfold N50_model, n50_walls_a, n50_windows_a, n50_windows_ca.
  change (airset (with_walls p ws)) with (filter air_wall ws). rewrite H. reflexivity.
Qed.
