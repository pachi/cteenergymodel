(* The sweeps over the regenerated tables that C14 and C20 rest on *)
From Coq Require Import NArith QArith List.
From CTE Require Import Base.Num Proofs.QSolP.
From CTEGen Require Import Tables.

(* every climate zone has its metadata and its July design day with at least one hour, all
   irradiances non-negative and sun altitudes within [0, 90] *)
Definition tables_ok : bool :=
  forallb (fun z =>
    existsb (fun e => N.eqb (fst e) z) zmeta &&
    match find (fun e => N.eqb (fst e) z) july with
    | Some (_, rows) => negb (Nat.eqb (length rows) 0) &&
        forallb (fun r => match r with (mo, d, h, az, alt, dir, dif) =>
          N.leb 1 mo && N.leb mo 12 && N.leb 1 d && N.ltb d 31 &&      (* nday_from_md asserts day < 32 *)
          qleb 0 dir && qleb 0 dif && qleb 0 alt && qleb alt 90 end) rows
    | None => false end) zones32.
Lemma tables_ok_true : tables_ok = true. Proof. vm_compute. reflexivity. Qed.

(* zone names round-trip through their textual form (Display / TryFrom) *)
Definition zones_roundtrip_ok : bool :=
  Nat.eqb (length zone_roundtrip) 32 &&
  forallb (fun e => match snd e with Some k => N.eqb k (fst e) | None => false end) zone_roundtrip.
