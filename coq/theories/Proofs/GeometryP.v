(* Facts about Model/Geometry.v: angles modulo 360 degrees, scaling of areas, space properties under unique ids *)
From Coq Require Import ZArith NArith QArith Qround List Lqa Morphisms.
From CTE Require Import Base.Num Model.BModel Model.Props Model.Geometry Proofs.ListP Proofs.NumP Proofs.ChecksP.
Local Open Scope Q_scope.

Lemma normalize_range v : 0 <= normalize v 0 360 < 360.
Proof. unfold normalize. pose proof (Qfloor_div_bounds (v - 0) (360 - 0) eq_refl). lra. Qed.

Lemma normalize_periodic v s e (k : Z) : s < e -> normalize (v + inject_Z k * (e - s)) s e == normalize v s e.
Proof.
  intros H. unfold normalize.
  rewrite (Qfloor_comp _ ((v - s) / (e - s) + inject_Z k)) by (field; lra).
  rewrite Qfloor_plus_Z, inject_Z_plus. ring.
Qed.

Lemma normalize_id v s e : s <= v < e -> normalize v s e == v.
Proof.
  intros H. unfold normalize. rewrite (Qfloor_unique _ 0); [ring|].
  change (inject_Z 0) with 0. split; [apply Qle_shift_div_l | apply Qlt_shift_div_r]; lra.
Qed.

Global Instance normalize_proper : Proper (Qeq ==> Qeq ==> Qeq ==> Qeq) normalize.
Proof.
  intros a a' Ha s s' Hs e e' He. unfold normalize.
  (* rewriting a, s, e in one go fails to see through inject_Z (Qfloor _): the floors first *)
  assert (F : Qfloor ((a - s) / (e - s)) = Qfloor ((a' - s') / (e' - s'))) by (rewrite Ha, Hs, He; reflexivity).
  rewrite F, Ha, Hs, He. reflexivity.
Qed.

(* rewriting does not enter the branches of the conditionals: the comparisons one by one *)
Global Instance tilt_class_raw_proper : Proper (Qeq ==> eq) tilt_class_raw.
Proof.
  intros a b E. unfold tilt_class_raw.
  assert (H : forall c, qltb a c = qltb b c) by (intros c; rewrite E; reflexivity).
  rewrite E, !H. reflexivity.
Qed.
Global Instance orient_class_raw_proper : Proper (Qeq ==> eq) orient_class_raw.
Proof.
  intros a b E. unfold orient_class_raw.
  assert (H : forall c, qltb a c = qltb b c) by (intros c; rewrite E; reflexivity).
  rewrite !H. reflexivity.
Qed.

Definition scale_poly (s : Q) (l : list (Q * Q)) : list (Q * Q) := map (fun p => (s * fst p, s * snd p)) l.

Lemma shoelace_from_scale s first l :
  shoelace_from (s * fst first, s * snd first) (scale_poly s l) == s * s * shoelace_from first l.
Proof. induction l as [|p [|q r] IH]; cbn [scale_poly map shoelace_from fst snd] in *; lra. Qed.

Lemma shoelace2_scale s l : shoelace2 (scale_poly s l) == s * s * shoelace2 l.
Proof. destruct l as [|p [|q r]]; [cbn; ring | cbn; ring | apply (shoelace_from_scale s p (p :: q :: r))]. Qed.

Lemma dedup_nodup l : NoDup l -> dedup l = l.
Proof.
  induction 1 as [|x l Hx _ IH]; [reflexivity|]. cbn [dedup].
  rewrite (proj2 (mem_false_In x l) Hx), IH. reflexivity.
Qed.

Lemma find_id_nodup {A} (idf : A -> uuid) l x :
  NoDup (map idf l) -> In x l -> find (fun y => N.eqb (idf y) (idf x)) l = Some x.
Proof.
  induction l as [|a l IH]; intros Hnd Hin; [destruct Hin|]. cbn [find].
  apply NoDup_cons_iff in Hnd as [Ha Hnd]. destruct Hin as [->|Hin]; [rewrite N.eqb_refl; reflexivity|].
  destruct (N.eqb_spec (idf a) (idf x)) as [E|_]; [|apply IH; assumption].
  destruct Ha. rewrite E. apply in_map, Hin.
Qed.

Lemma last_space_nodup m s : NoDup (map s_id (m_spaces m)) -> In s (m_spaces m) -> last_space m (s_id s) = Some s.
Proof.
  intros Hnd Hin. apply find_id_nodup; [rewrite map_rev; apply NoDup_rev, Hnd | rewrite <- in_rev; exact Hin].
Qed.

(* one entry per space, in list order *)
Lemma all_space_props_nodup m : NoDup (map s_id (m_spaces m)) ->
  all_space_props m =
  map (fun s => mkSpaceP (s_kind s) (s_inside s) (space_area m (s_id s)) (s_mult s) (s_height s)
                  (space_height_net m s) (space_area m (s_id s) * space_height_net m s)) (m_spaces m).
Proof.
  intros Hnd. unfold all_space_props, space_keys. rewrite (dedup_nodup _ Hnd). apply flat_map_some.
  intros s Hs. unfold space_props. rewrite (last_space_nodup m s Hnd Hs). reflexivity.
Qed.
