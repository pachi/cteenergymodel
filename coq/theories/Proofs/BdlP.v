(* Proofs about Model/Bdl.v: the layout of a printed document vanishes in clean_lines, and the
   blocks of a printed document are recovered by the splitter, header and attribute parsers.
   The facts about trimming, joining and splitting that come first also serve the other readers of text
   (KygP, TblP, BdlTypedDbP, BdlPolySchedP). *)
From Coq Require Import NArith Bool List.
From CTE Require Import Model.Bdl Model.BdlDoc Proofs.ListP.
Import ListNotations.
Local Open Scope N_scope.

(* the names under which wf_pline is written; elsewhere BdlDoc.all_wsb and BdlDoc.edges_ok (non-empty, first and
   last character not white space) go by their own *)
Notation all_ws := all_wsb.
Notation trimmedb := edges_ok.
Definition no_nl (s : str) : bool := forallb (fun c => negb (c =? nl)) s.

(* The droppers of the model are instances of one: drop_ws is drop_while is_ws, trim is trim_while is_ws,
   BdlTyped.trim_parens is trim_while is_pc and edges_ok is edges is_ws, all by conversion; for drop_ch
   see trim_ch_while; quote_free_edges is edges (fun c => c =? quote) on every text but the empty one, which it admits. *)
Definition drop_while (p : N -> bool) : str -> str :=
  fix drop s := match s with c :: r => if p c then drop r else s | [] => [] end.
Definition trim_while (p : N -> bool) (s : str) : str := rev (drop_while p (rev (drop_while p s))).
Definition edges (p : N -> bool) (s : str) : bool :=
  match s with [] => false | x :: _ => negb (p x) && negb (p (last s 0)) end.

Lemma drop_while_app p w s : forallb p w = true -> drop_while p (w ++ s) = drop_while p s.
Proof. induction w as [|x w IH]; [reflexivity|]. intros [Hx Hw]%andb_prop. cbn. rewrite Hx. exact (IH Hw). Qed.

Lemma drop_while_snoc p l x : p x = false -> drop_while p (l ++ [x]) = drop_while p l ++ [x].
Proof.
  intros Hx. induction l as [|a l IH]; cbn; [rewrite Hx; reflexivity|]. destruct (p a); [exact IH | reflexivity].
Qed.

Lemma rev_last_cons (c : str) : c <> [] -> rev c = last c 0 :: rev (removelast c).
Proof.
  intros H. transitivity (rev (removelast c ++ [last c 0])); [f_equal; apply app_removelast_last, H | apply rev_unit].
Qed.

Lemma trim_while_wrap p w1 c w2 : forallb p w1 = true -> forallb p w2 = true -> edges p c = true ->
  trim_while p (w1 ++ c ++ w2) = c.
Proof.
  intros H1 H2 Hc. unfold trim_while. rewrite drop_while_app by exact H1.
  destruct c as [|x r]; [discriminate|]. apply andb_prop in Hc as [Hx%negb_true_iff Hl%negb_true_iff].
  cbn [app drop_while]. rewrite Hx. change (x :: r ++ w2) with ((x :: r) ++ w2).
  rewrite rev_app_distr, drop_while_app by (apply forallb_rev, H2).
  rewrite (rev_last_cons (x :: r)) by discriminate. cbn [drop_while]. rewrite Hl.
  rewrite <- (rev_last_cons (x :: r)) by discriminate. apply rev_involutive.
Qed.

Lemma trim_while_id p c : edges p c = true -> trim_while p c = c.
Proof. intros H. pose proof (trim_while_wrap p [] c [] eq_refl eq_refl H) as E. rewrite app_nil_r in E. exact E. Qed.

Lemma trim_while_all p w : forallb p w = true -> trim_while p w = [].
Proof. intros H. unfold trim_while. rewrite <- (app_nil_r w), drop_while_app by exact H. reflexivity. Qed.

(* the first character that does not satisfy p stays in front *)
Lemma trim_while_head p w x r : forallb p w = true -> p x = false ->
  trim_while p (w ++ x :: r) = x :: rev (drop_while p (rev r)).
Proof.
  intros Hw Hx. unfold trim_while. rewrite drop_while_app by exact Hw. cbn [drop_while]. rewrite Hx. cbn [rev].
  rewrite drop_while_snoc by exact Hx. apply rev_unit.
Qed.

Lemma trim_wrap w1 c w2 : all_wsb w1 = true -> all_wsb w2 = true -> edges_ok c = true -> trim (w1 ++ c ++ w2) = c.
Proof. exact (trim_while_wrap is_ws w1 c w2). Qed.
Lemma trim_wrap_l w c : all_wsb w = true -> edges_ok c = true -> trim (w ++ c) = c.
Proof. intros Hw Hc. pose proof (trim_wrap w c [] Hw eq_refl Hc) as E. rewrite app_nil_r in E. exact E. Qed.
Lemma trim_wrap_r c w : all_wsb w = true -> edges_ok c = true -> trim (c ++ w) = c.
Proof. exact (trim_wrap [] c w eq_refl). Qed.
Lemma trim_id c : edges_ok c = true -> trim c = c.
Proof. exact (trim_while_id is_ws c). Qed.
Lemma trim_all_ws w : all_wsb w = true -> trim w = [].
Proof. exact (trim_while_all is_ws w). Qed.

Lemma trim_ch_while d s : trim_ch d s = trim_while (fun c => c =? d) s.
Proof.
  assert (E : forall t, drop_ch d t = drop_while (fun c => c =? d) t)
    by (induction t as [|c r IH]; [reflexivity|]; cbn; rewrite IH; reflexivity).
  unfold trim_ch, trim_while. rewrite !E. reflexivity.
Qed.

Lemma trim_quote_id s : quote_free_edges s = true -> trim_ch quote s = s.
Proof. rewrite trim_ch_while. destruct s as [|x r]; [reflexivity | exact (trim_while_id _ (x :: r))]. Qed.

Lemma trim_quote_wrap s : quote_free_edges s = true -> trim_ch quote (quote :: s ++ [quote]) = s.
Proof.
  rewrite trim_ch_while. destruct s as [|x r]; [reflexivity|].
  exact (trim_while_wrap (fun c => c =? quote) [quote] (x :: r) [quote] eq_refl eq_refl).
Qed.

(* join has a case of its own for the one-element list: inductions over a joined list go by [|a [|b r] IH] and this equation *)
Lemma join_cons (sep a : str) (l : list str) : l <> [] -> join sep (a :: l) = a ++ sep ++ join sep l.
Proof. destruct l; [contradiction | reflexivity]. Qed.

Lemma join_app (sep : str) (l1 l2 : list str) : l1 <> [] -> l2 <> [] ->
  join sep (l1 ++ l2) = join sep l1 ++ sep ++ join sep l2.
Proof.
  intros H1 H2. induction l1 as [|a [|b q] IH]; [contradiction| |].
  - apply join_cons, H2.
  - cbn [app] in *. rewrite !(join_cons sep a), IH, <- !app_assoc by discriminate. reflexivity.
Qed.

Lemma edges_app p (a m z : str) : edges p a = true -> edges p z = true -> edges p (a ++ m ++ z) = true.
Proof.
  destruct a as [|x a], z as [|y z]; try discriminate. intros [Hx _]%andb_prop [_ Hz]%andb_prop.
  rewrite app_assoc. unfold edges. cbn [app]. rewrite Hx. change (x :: (a ++ m) ++ y :: z) with ((x :: a ++ m) ++ y :: z).
  rewrite last_app_ne by discriminate. exact Hz.
Qed.

Lemma edges_join p sep (ls : list str) : ls <> [] -> forallb (edges p) ls = true -> edges p (join sep ls) = true.
Proof.
  induction ls as [|a [|b r] IH]; [contradiction| |]; intros _ [Ha Hr]%andb_prop; [exact Ha|].
  rewrite join_cons by discriminate. apply edges_app; [exact Ha | apply IH; [discriminate | exact Hr]].
Qed.

Lemma split_on_no d s : forallb (fun c => negb (c =? d)) s = true -> split_on d s = [s].
Proof.
  induction s as [|c r IH]; [reflexivity|]. intros [Hc%negb_true_iff Hr]%andb_prop. cbn. rewrite Hc, (IH Hr). reflexivity.
Qed.

Lemma split_on_app d a b : forallb (fun c => negb (c =? d)) a = true ->
  split_on d (a ++ d :: b) = a :: split_on d b.
Proof.
  induction a as [|c r IH]; cbn [app split_on].
  - intros _. rewrite N.eqb_refl. reflexivity.
  - intros [Hc%negb_true_iff Hr]%andb_prop. rewrite Hc, (IH Hr). reflexivity.
Qed.

Lemma split_on_join d (ls : list str) : ls <> [] -> forallb (forallb (fun c => negb (c =? d))) ls = true ->
  split_on d (join [d] ls) = ls.
Proof.
  induction ls as [|a [|b r] IH]; [contradiction| |]; intros _ [Ha Hr]%andb_prop.
  - apply split_on_no, Ha.
  - rewrite join_cons by discriminate. cbn [app]. rewrite split_on_app by exact Ha. f_equal. apply IH; [discriminate | exact Hr].
Qed.

(* The lines of a file as the cleaner sees them: indentation, trailing blanks, CR, blank and comment lines vanish. *)
Inductive pline :=
| PContent (pre c post : str)            (* a line of the document between white space (CR included) *)
| PBlank (w : str)                       (* white space only *)
| PDropped (pre : str) (x : N) (body : str).   (* first non-blank character opens a comment / LIDER header line *)

Definition render_line (p : pline) : str :=
  match p with
  | PContent pre c post => pre ++ c ++ post
  | PBlank w => w
  | PDropped pre x body => pre ++ x :: body
  end.
Definition dropped_char (x : N) : bool := existsb (fun p => prefixb p [x]) drop_prefixes && negb (is_ws x).
Definition wf_pline (p : pline) : bool :=
  match p with
  | PContent pre c post => all_ws pre && all_ws post && no_nl pre && no_nl c && no_nl post && trimmedb c && keep_line c
  | PBlank w => all_ws w && no_nl w
  | PDropped pre x body => all_ws pre && no_nl pre && no_nl body && negb (x =? nl) && dropped_char x
  end.
Definition contents (pls : list pline) : list str :=
  flat_map (fun p => match p with PContent _ c _ => [c] | _ => [] end) pls.
Definition render (pls : list pline) : str := join [nl] (map render_line pls).
Definition not_removed (c : N) : bool := negb (existsb (N.eqb c) removed_chars).

Lemma wf_pline_parts p : wf_pline p = true ->
  match p with
  | PContent pre c post => all_wsb pre = true /\ all_wsb post = true /\ no_nl pre = true /\ no_nl c = true /\ no_nl post = true /\
                           edges_ok c = true /\ keep_line c = true
  | PBlank w => all_wsb w = true /\ no_nl w = true
  | PDropped pre x body => all_wsb pre = true /\ no_nl pre = true /\ no_nl body = true /\ negb (x =? nl) = true /\ dropped_char x = true
  end.
Proof. destruct p; cbn [wf_pline]; intros H; repeat (apply andb_prop in H as [H ?]); repeat split; assumption. Qed.

Lemma render_line_no_nl p : wf_pline p = true -> no_nl (render_line p) = true.
Proof.
  intros H%wf_pline_parts. unfold no_nl in *. destruct p as [pre c post|w|pre x body]; cbn [render_line]; rewrite ?forallb_app.
  - destruct H as (_ & _ & Hp & Hc & Hq & _). rewrite Hp, Hc, Hq. reflexivity.
  - apply H.
  - destruct H as (_ & Hp & Hb & Hx & _). cbn [forallb]. rewrite Hp, Hb, Hx. reflexivity.
Qed.

Lemma prefixb_app p s r : prefixb p s = true -> prefixb p (s ++ r) = true.
Proof.
  revert s. induction p as [|a p IH]; intros [|b s]; try discriminate; [reflexivity..|].
  cbn. intros [-> H]%andb_prop. exact (IH s H).
Qed.

Lemma keep_dropped x t : dropped_char x = true -> keep_line (x :: t) = false.
Proof.
  intros [(p & Hin & Hp)%existsb_exists _]%andb_prop. unfold keep_line.
  replace (existsb (fun p0 => prefixb p0 (x :: t)) drop_prefixes) with true; [reflexivity|].
  symmetry. apply existsb_exists. exists p. split; [exact Hin | exact (prefixb_app p [x] t Hp)].
Qed.

Lemma line_effect p ls : wf_pline p = true ->
  filter keep_line (trim (render_line p) :: ls) = match p with PContent _ c _ => [c] | _ => [] end ++ filter keep_line ls.
Proof.
  intros H%wf_pline_parts. destruct p as [pre c post|w|pre x body]; cbn [render_line].
  - destruct H as (H1 & H2 & _ & _ & _ & Hc & Hk). rewrite (trim_wrap pre c post H1 H2 Hc). cbn [filter]. rewrite Hk. reflexivity.
  - destruct H as [Hw _]. rewrite (trim_all_ws w Hw). reflexivity.
  - destruct H as (Hp & _ & _ & _ & Hd). pose proof Hd as [_ Hx%negb_true_iff]%andb_prop.
    change (trim (pre ++ x :: body)) with (trim_while is_ws (pre ++ x :: body)).
    rewrite (trim_while_head is_ws pre x body Hp Hx). cbn [filter]. rewrite (keep_dropped x _ Hd). reflexivity.
Qed.

(* C18_layout_erased, also for the empty text *)
Theorem content_lines_render pls : forallb wf_pline pls = true ->
  forallb not_removed (render pls) = true -> content_lines (render pls) = contents pls.
Proof.
  intros Hwf Hrm. unfold content_lines. fold not_removed. rewrite (filter_id _ _ Hrm).
  assert (E : filter keep_line (map trim (map render_line pls)) = contents pls).
  { clear Hrm. induction pls as [|p r IH]; [reflexivity|]. apply andb_prop in Hwf as [Hp Hr].
    cbn [map contents flat_map]. rewrite (line_effect p _ Hp), (IH Hr). reflexivity. }
  destruct pls as [|p0 r0]; [reflexivity|]. unfold render. rewrite (split_on_join nl); [exact E | discriminate |].
  rewrite forallb_map. revert Hwf. apply forallb_impl, render_line_no_nl.
Qed.

(* C19_layout_edit_invisible, also for empty texts *)
Theorem layout_edit_invisible pls pls' : forallb wf_pline pls = true -> forallb wf_pline pls' = true ->
  forallb not_removed (render pls) = true -> forallb not_removed (render pls') = true ->
  contents pls = contents pls' -> build_blocks (render pls) = build_blocks (render pls').
Proof.
  intros W1 W2 R1 R2 Hc. unfold build_blocks, sanitize, clean_lines.
  rewrite (content_lines_render pls W1 R1), (content_lines_render pls' W2 R2), Hc. reflexivity.
Qed.

(* a blank, comment or LIDER header line adds nothing to the contents, wherever it stands *)
Lemma contents_noise a p b : (match p with PContent _ _ _ => False | _ => True end) ->
  contents (a ++ p :: b) = contents (a ++ b).
Proof.
  intros Hp. unfold contents. rewrite !flat_map_app. destruct p; [contradiction | reflexivity | reflexivity].
Qed.

Lemma has_false_forallb c s : has c s = false -> forallb (fun x => negb (x =? c)) s = true.
Proof.
  unfold has. induction s as [|x r IH]; [reflexivity|]. intros [H1 H2]%orb_false_elim. cbn. rewrite N.eqb_sym, H1. exact (IH H2).
Qed.

Lemma has_not (q : N -> bool) c s : q c = false -> forallb q s = true -> has c s = false.
Proof.
  intros Hc. unfold has. induction s as [|x r IH]; [reflexivity|]. intros [Hx Hr]%andb_prop. cbn.
  rewrite (IH Hr), orb_false_r. apply N.eqb_neq. intros ->. congruence.
Qed.

Lemma has_app c a b : has c (a ++ b) = has c a || has c b.
Proof. unfold has. apply existsb_app. Qed.

Lemma split_first_app d a b : has d a = false -> split_first d (a ++ d :: b) = (a, Some b).
Proof.
  unfold has. induction a as [|x r IH]; cbn [app split_first].
  - intros _. rewrite N.eqb_refl. reflexivity.
  - intros [H1 H2]%orb_false_elim. rewrite N.eqb_sym, H1, (IH H2). reflexivity.
Qed.

Lemma split_first_none d a : has d a = false -> split_first d a = (a, None).
Proof.
  unfold has. induction a as [|x r IH]; [reflexivity|]. intros [H1 H2]%orb_false_elim. cbn. rewrite N.eqb_sym, H1, (IH H2). reflexivity.
Qed.

Lemma str_eqb_eq a b : str_eqb a b = true -> a = b.
Proof.
  revert b; induction a as [|x a IH]; intros [|y b]; try discriminate; [reflexivity|].
  intros [->%N.eqb_eq H]%andb_prop. rewrite (IH b H). reflexivity.
Qed.

Lemma str_eqb_neq a b : a <> b -> str_eqb a b = false.
Proof. intros H. destruct (str_eqb a b) eqn:E; [destruct (H (str_eqb_eq a b E)) | reflexivity]. Qed.

Lemma paren_edges f : starts_with 40 f = true -> ends_with 41 f = true -> edges_ok f = true /\ quote_free_edges f = true.
Proof.
  destruct f as [|x r]; [discriminate|]. unfold ends_with, edges_ok, quote_free_edges.
  rewrite (rev_last_cons (x :: r)) by discriminate. cbn [starts_with]. intros ->%N.eqb_eq ->%N.eqb_eq. split; reflexivity.
Qed.

Lemma edges_quoted s : edges_ok (quote :: s ++ [quote]) = true.
Proof. unfold edges_ok. change (quote :: s ++ [quote]) with ((quote :: s) ++ [quote]). rewrite last_last. reflexivity. Qed.

(* the continuation lines of an open list value *)
Lemma cont_lines mid : forall lst v acc more k,
  forallb (fun l => negb (ends_with 41 l)) mid = true -> ends_with 41 lst = true ->
  parse_attrs (mid ++ lst :: more) acc (Some (k, v)) = parse_attrs more (attr_insert k (v ++ List.concat mid ++ lst) acc) None.
Proof.
  induction mid as [|l mid IH]; intros lst v acc more k Hm Hl; cbn [app parse_attrs List.concat].
  - rewrite Hl. reflexivity.
  - apply andb_prop in Hm as [H1%negb_true_iff H2]. rewrite H1, (IH lst (v ++ l) acc more k H2 Hl), <- !app_assoc. reflexivity.
Qed.

(* a line "key = value", with any white space around the equals sign *)
Lemma attr_first_line k s1 s2 vt more acc :
  edges_ok k = true -> has eqc k = false -> all_wsb s1 = true -> all_wsb s2 = true -> edges_ok vt = true ->
  parse_attrs ((k ++ s1 ++ eqc :: s2 ++ vt) :: more) acc None =
  if starts_with 40 vt && negb (ends_with 41 vt)
  then parse_attrs more acc (Some (k, vt))
  else parse_attrs more (attr_insert k (trim_ch quote vt) acc) None.
Proof.
  intros Hk Hke H1 H2 Hvt. set (line := k ++ s1 ++ eqc :: s2 ++ vt).
  assert (Hhas : has eqc line = true).
  { unfold line. rewrite !has_app. cbn [has existsb]. rewrite N.eqb_refl, !orb_true_r. reflexivity. }
  cbn [parse_attrs].
  rewrite !str_eqb_neq by (intros E; rewrite E in Hhas; discriminate Hhas). cbn [orb].
  unfold line. rewrite app_assoc. change 61 with eqc.
  rewrite split_first_app by (rewrite has_app, Hke, (has_not is_ws eqc _ eq_refl H1); reflexivity).
  rewrite (trim_wrap_r k s1 H1 Hk), (trim_wrap_l s2 vt H2 Hvt). reflexivity.
Qed.

Lemma wf_attr_parts a : wf_attr a = true ->
  edges_ok (at_key a) = true /\ has eqc (at_key a) = false /\ all_wsb (at_sp1 a) = true /\ all_wsb (at_sp2 a) = true /\
  wf_val (at_val a) = true /\ forallb wf_line (attr_lines a) = true.
Proof.
  unfold wf_attr. intros H. repeat (apply andb_prop in H as [H ?]). repeat split; try assumption. apply negb_true_iff. assumption.
Qed.

Lemma attr_parse a more acc : wf_attr a = true ->
  parse_attrs (attr_lines a ++ more) acc None =
  parse_attrs more (attr_insert (at_key a) (value_result (at_val a)) acc) None.
Proof.
  intros (Hk & Hke & H1 & H2 & Hv & _)%wf_attr_parts. unfold attr_lines.
  pose proof (fun vt more => attr_first_line (at_key a) (at_sp1 a) (at_sp2 a) vt more acc Hk Hke H1 H2) as L.
  destruct (at_val a) as [t|t|s|f rest]; cbn [value_text value_result app]; [| | |destruct rest as [|l0 rest0]]; cbn [wf_val] in Hv.
  1-2: apply andb_prop in Hv as [[He Hq]%andb_prop Hs%negb_true_iff]; rewrite L, Hs, trim_quote_id by assumption; reflexivity.
  - rewrite L, trim_quote_wrap by (exact Hv || apply edges_quoted). reflexivity.
  - apply andb_prop in Hv as [Hs He]. destruct (paren_edges f Hs He) as [Hed Hq].
    rewrite L, Hs, He, trim_quote_id, app_nil_r by assumption. reflexivity.
  - set (rest := l0 :: rest0) in *. revert Hv. intros [[[[Hs He%negb_true_iff]%andb_prop Hed]%andb_prop Hm]%andb_prop Hl]%andb_prop.
    rewrite L, Hs, He by exact Hed. cbn [andb negb].
    assert (E : rest = removelast rest ++ [last rest []]) by (apply app_removelast_last; discriminate).
    rewrite E, <- app_assoc, concat_app. cbn [app List.concat]. rewrite app_nil_r. apply cont_lines; assumption.
Qed.

Lemma attrs_parse attrs : forall more acc, forallb wf_attr attrs = true ->
  parse_attrs (flat_map attr_lines attrs ++ more) acc None =
  parse_attrs more (fold_left (fun m a => attr_insert (at_key a) (value_result (at_val a)) m) attrs acc) None.
Proof.
  induction attrs as [|a r IH]; intros more acc; [reflexivity|]. intros [Ha Hr]%andb_prop. cbn [flat_map fold_left].
  rewrite <- app_assoc, (attr_parse a _ acc Ha). apply IH, Hr.
Qed.

Lemma wf_line_parts l : wf_line l = true -> has nl l = false /\ edges_ok l = true /\ ddfree l = true /\ keep_line l = true.
Proof. unfold wf_line. intros [[[H1%negb_true_iff H2]%andb_prop H3]%andb_prop H4]%andb_prop. auto. Qed.

Lemma wf_lines_parts A : forallb wf_line A = true ->
  forallb no_nl A = true /\ forallb edges_ok A = true /\ forallb ddfree A = true.
Proof.
  intros H. repeat split; revert H; apply forallb_impl; intros x Hx; [apply has_false_forallb|..]; apply (wf_line_parts x Hx).
Qed.

Lemma attr_lines_wf attrs : forallb wf_attr attrs = true -> forallb wf_line (flat_map attr_lines attrs) = true.
Proof. intros H. apply forallb_flat_map. revert H. apply forallb_impl. intros a Ha. apply (wf_attr_parts a Ha). Qed.

Definition nonempty (s : str) : bool := match s with [] => false | _ => true end.

Lemma drop_last_empty_id (ls : list str) : forallb nonempty ls = true -> drop_last_empty ls = ls.
Proof.
  induction ls as [|[|x a] r IH]; [reflexivity|discriminate|]. intros H. cbn [drop_last_empty]. rewrite (IH H). reflexivity.
Qed.

Lemma map_trim_id (ls : list str) : forallb edges_ok ls = true -> map trim ls = ls.
Proof. exact (map_fixed trim edges_ok ls trim_id). Qed.

(* the attribute lines of a block, as parse_attributes sees them *)
Lemma data_lines (A : list str) : forallb wf_line A = true ->
  map trim (lines_of (trim (join [nl] A))) = A.
Proof.
  intros (Hn & He & _)%wf_lines_parts. destruct A as [|l A']; [reflexivity|].
  rewrite (trim_id _ (edges_join is_ws [nl] (l :: A') ltac:(discriminate) He)). unfold lines_of.
  rewrite (split_on_join nl), drop_last_empty_id, (map_trim_id _ He); [reflexivity | | discriminate | exact Hn].
  revert He. apply forallb_impl. intros [|x s]; [discriminate | reflexivity].
Qed.

(* parse_block on a header line h (with an equals sign) followed by attribute lines A *)
Lemma parse_block_lines h a b A : has nl h = false -> edges_ok h = true -> split_first eqc h = (a, Some b) ->
  forallb wf_line A = true ->
  parse_block (join [nl] (h :: A)) =
  match parse_attrs A [] None with
  | Err e => Err e
  | Ok attrs => match parse_type (trim_ch quote (trim b)) with
                | Some t => Ok (mkBlock t (trim (trim_ch quote (trim a))) None attrs)
                | None => Err 1
                end
  end.
Proof.
  intros Hnl He Hs HA. unfold parse_block. destruct A as [|l A'].
  - assert (Heq : existsb (N.eqb 61) h = true).
    { destruct (existsb (N.eqb 61) h) eqn:E; [reflexivity|]. rewrite (split_first_none eqc h E) in Hs. discriminate. }
    cbn [join]. rewrite (split_first_none nl h Hnl), (trim_id h He), Heq, (trim_id h He). change 61 with eqc. rewrite Hs. reflexivity.
  - rewrite join_cons by discriminate. cbn [app]. rewrite (split_first_app nl h _ Hnl), (trim_id h He). change 61 with eqc.
    rewrite Hs. unfold parse_attributes. rewrite (data_lines _ HA). reflexivity.
Qed.

Lemma wf_block_parts b : wf_block b = true ->
  edges_ok (ab_name b) = true /\ quote_free_edges (ab_name b) = true /\ has eqc (ab_name b) = false /\
  all_wsb (ab_sp1 b) = true /\ all_wsb (ab_sp2 b) = true /\ edges_ok (ab_kw b) = true /\ quote_free_edges (ab_kw b) = true /\
  (exists t, parse_type (ab_kw b) = Some t) /\ wf_line (header_line b) = true /\ forallb wf_attr (ab_attrs b) = true.
Proof.
  unfold wf_block. intros H. repeat (apply andb_prop in H as [H ?]). repeat split; try assumption.
  - apply negb_true_iff. assumption.
  - destruct (parse_type (ab_kw b)) as [t|]; [exists t; reflexivity | discriminate].
Qed.

Lemma header_split b : wf_block b = true ->
  split_first eqc (header_line b) = ((quote :: ab_name b ++ [quote]) ++ ab_sp1 b, Some (ab_sp2 b ++ ab_kw b)).
Proof.
  intros (_ & _ & Hne & H1 & _)%wf_block_parts.
  replace (header_line b) with ((([quote] ++ ab_name b ++ [quote]) ++ ab_sp1 b) ++ eqc :: ab_sp2 b ++ ab_kw b)
    by (unfold header_line; cbn [app]; rewrite <- !app_assoc; reflexivity).
  rewrite split_first_app; [reflexivity|]. rewrite !has_app, Hne, (has_not is_ws eqc _ eq_refl H1). reflexivity.
Qed.

Theorem parse_block_body b : wf_block b = true ->
  exists blk, raw_block b = Some blk /\ parse_block (join [nl] (body_lines b)) = Ok blk.
Proof.
  intros Hwf. destruct (wf_block_parts b Hwf) as (Hn & Hnq & _ & H1 & H2 & Hk & Hkq & [t Ht] & Hh & Hat).
  destruct (wf_line_parts _ Hh) as (Hhnl & Hhe & _).
  exists (mkBlock t (ab_name b) None (attrs_result (ab_attrs b))). unfold raw_block. rewrite Ht. split; [reflexivity|].
  unfold body_lines. rewrite (parse_block_lines _ _ _ _ Hhnl Hhe (header_split b Hwf) (attr_lines_wf _ Hat)).
  rewrite <- (app_nil_r (flat_map attr_lines (ab_attrs b))), (attrs_parse (ab_attrs b) [] [] Hat). cbn [parse_attrs].
  rewrite (trim_wrap_l (ab_sp2 b) (ab_kw b) H2 Hk), (trim_quote_id (ab_kw b) Hkq), Ht.
  rewrite (trim_wrap_r _ (ab_sp1 b) H1 (edges_quoted (ab_name b))), (trim_quote_wrap (ab_name b) Hnq), (trim_id _ Hn).
  reflexivity.
Qed.

Lemma ddfree_app a x b : (x =? 46) = false -> ddfree (a ++ x :: b) = ddfree a && ddfree b.
Proof.
  intros Hx. induction a as [|c a IH]; cbn [app ddfree].
  - rewrite Hx. destruct b; reflexivity.
  - rewrite IH. destruct a as [|c2 a']; cbn [app]; [rewrite Hx, andb_false_r | rewrite andb_assoc]; reflexivity.
Qed.

Lemma ddfree_ws w1 s w2 : all_wsb w1 = true -> all_wsb w2 = true -> ddfree (w1 ++ s ++ w2) = ddfree s.
Proof.
  assert (Hx : forall x, is_ws x = true -> (x =? 46) = false)
    by (intros x H; destruct (N.eqb_spec x 46) as [->|]; [discriminate H | reflexivity]).
  assert (L : forall w t, all_wsb w = true -> ddfree (w ++ t) = ddfree t).
  { induction w as [|x w IH]; intros t; [reflexivity|]. intros [H1 H2]%andb_prop.
    rewrite <- (IH t H2). exact (ddfree_app [] x (w ++ t) (Hx x H1)). }
  intros H1 H2. rewrite (L w1 _ H1). destruct w2 as [|x w2]; [rewrite app_nil_r; reflexivity|].
  apply andb_prop in H2 as [H2 H3]. rewrite (ddfree_app s x w2 (Hx x H2)), <- (app_nil_r w2), (L w2 [] H3). apply andb_true_r.
Qed.

Lemma ddfree_join (ls : list str) : forallb ddfree ls = true -> ddfree (join [nl] ls) = true.
Proof.
  induction ls as [|a [|b r] IH]; [reflexivity| |]; intros [Ha Hr]%andb_prop; [exact Ha|].
  rewrite join_cons by discriminate. cbn [app]. rewrite (ddfree_app a nl _ eq_refl), Ha. exact (IH Hr).
Qed.

(* one step of split_dd as a rewriting rule: cbn [split_dd] would go on through every character in sight *)
Lemma split_dd_cons2 c c2 r :
  split_dd (c :: c2 :: r) = if (c =? 46) && (c2 =? 46) then [] :: split_dd r else cons_head c (split_dd (c2 :: r)).
Proof. reflexivity. Qed.

(* two dots after a text without them and a character that is not a dot *)
Lemma split_dd_sep u x : forall rest, ddfree u = true -> (x =? 46) = false ->
  split_dd (u ++ x :: 46 :: 46 :: rest) = (u ++ [x]) :: split_dd rest.
Proof.
  intros rest Hd Hx. induction u as [|c [|c2 u] IH]; cbn [app].
  - rewrite split_dd_cons2, Hx. reflexivity.
  - rewrite split_dd_cons2, Hx, andb_false_r. cbn [app] in IH. rewrite IH by reflexivity. reflexivity.
  - cbn [ddfree] in Hd. apply andb_prop in Hd as [Hc%negb_true_iff Hd].
    rewrite split_dd_cons2, Hc. cbn [app] in IH. rewrite (IH Hd). reflexivity.
Qed.

Definition body_text (b : ablock) : str := join [nl] (body_lines b).

Lemma body_text_facts b : wf_block b = true ->
  edges_ok (body_text b) = true /\ ddfree (body_text b) = true /\ starts_with quote (body_text b) = true.
Proof.
  intros (_ & _ & _ & _ & _ & _ & _ & _ & Hh & Hat)%wf_block_parts.
  assert (Hl : forallb wf_line (body_lines b) = true) by (cbn [body_lines forallb]; rewrite Hh; apply attr_lines_wf, Hat).
  apply wf_lines_parts in Hl as (_ & He & Hd). unfold body_text. repeat split.
  - apply (edges_join is_ws); [discriminate | exact He].
  - apply ddfree_join, Hd.
  - unfold body_lines, header_line. destruct (flat_map attr_lines (ab_attrs b)); reflexivity.
Qed.

(* a block text between white space, closed by ".." on a line of its own *)
Lemma block_texts_cons w1 c w2 rest : all_wsb w1 = true -> all_wsb w2 = true -> edges_ok c = true -> ddfree c = true ->
  block_texts (w1 ++ c ++ w2 ++ nl :: 46 :: 46 :: rest) = c :: block_texts rest.
Proof.
  intros H1 H2 He Hd. unfold block_texts. rewrite 2!app_assoc, split_dd_sep.
  - cbn [map filter]. rewrite <- !app_assoc, trim_wrap; [destruct c; [discriminate | reflexivity] | exact H1 | | exact He].
    unfold all_wsb in *. rewrite forallb_app, H2. reflexivity.
  - rewrite <- app_assoc, ddfree_ws; assumption.
  - reflexivity.
Qed.

Lemma doc_text b r : exists pre, (pre = [] \/ pre = [nl]) /\
  join [nl] (doc_lines (b :: r)) = body_text b ++ nl :: 46 :: 46 :: pre ++ join [nl] (doc_lines r).
Proof.
  cbn [doc_lines flat_map]. fold (doc_lines r). unfold block_lines, body_text.
  rewrite <- app_assoc, join_app by (unfold body_lines; discriminate).
  destruct (doc_lines r) as [|l ls]; [exists [] | exists [nl]]; split; auto.
Qed.

Lemma block_texts_doc d : forall pre, (pre = [] \/ pre = [nl]) -> wf_doc d = true ->
  block_texts (pre ++ join [nl] (doc_lines d)) = map body_text d.
Proof.
  induction d as [|b r IH]; intros pre Hpre; [destruct Hpre as [-> | ->]; reflexivity|]. intros [Hb Hr]%andb_prop.
  destruct (body_text_facts b Hb) as (He & Hd & _). destruct (doc_text b r) as (pre' & Hpre' & ->).
  cbn [map]. rewrite <- (IH pre' Hpre' Hr).
  apply (block_texts_cons pre (body_text b) []); [destruct Hpre as [-> | ->]; reflexivity | reflexivity | exact He | exact Hd].
Qed.

(* no ignored block keyword of the regenerated BdlTypes.bdl_ignored_blocks starts with a quote: evaluated *)
Lemma is_ignored_quote s : starts_with quote s = true -> is_ignored s = false.
Proof. destruct s as [|x t]; [discriminate|]. cbn [starts_with]. intros ->%N.eqb_eq. vm_compute. reflexivity. Qed.

Lemma blocks_loop_doc d : forall st, wf_doc d = true ->
  exists l, expected_from st d = Some l /\ blocks_loop (map body_text d) st = Ok l.
Proof.
  induction d as [|b r IH]; intros st; [exists []; split; reflexivity|]. intros [Hb Hr]%andb_prop.
  destruct (parse_block_body b Hb) as (blk & Hraw & Hparse). destruct (body_text_facts b Hb) as (_ & _ & Hq).
  cbn [map blocks_loop expected_from]. rewrite (is_ignored_quote _ Hq). fold (body_text b) in Hparse. rewrite Hparse, Hraw.
  destruct (parent_step st blk) as [par st']. destruct (IH st' Hr) as (l & He & Hl). rewrite He, Hl. eexists. split; reflexivity.
Qed.

Lemma typed_string v : is_number v = false -> typed v = VStr (trim v).
Proof. unfold typed. intros ->. reflexivity. Qed.
