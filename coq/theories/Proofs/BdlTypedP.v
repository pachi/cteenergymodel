(* Proofs about Model/BdlTyped.v: what the typed readers look up is what was written *)
From Coq Require Import NArith List.
From CTE Require Import Model.Bdl Model.BdlDoc Proofs.BdlP.
From CTE Require Import Model.BdlTyped.
Import ListNotations.
Local Open Scope N_scope.

Lemma str_eqb_refl a : str_eqb a a = true.
Proof. induction a as [|x a IH]; [reflexivity|]. cbn. rewrite N.eqb_refl, IH. reflexivity. Qed.

Lemma lookup_insert k k' v m :
  lookup_attr k' (map_insert k v m) = if str_eqb k k' then Some v else lookup_attr k' m.
Proof.
  unfold lookup_attr. induction m as [|[k0 v0] r IH]; cbn [map_insert find fst snd].
  - destruct (str_eqb k k'); reflexivity.
  - destruct (str_eqb k k0) eqn:E; [apply str_eqb_eq in E; subst k0 | destruct (str_ltb k k0)]; cbn [find fst snd].
    + destruct (str_eqb k k'); reflexivity.
    + destruct (str_eqb k k'); reflexivity.
    + destruct (str_eqb k0 k') eqn:E0; [|exact IH]. apply str_eqb_eq in E0. subst k0. rewrite E. reflexivity.
Qed.

(* the last attribute written with key k (attributes are inserted in file order; a repeated key overwrites) *)
Fixpoint last_written (k : str) (l : list aattr) : option bval :=
  match l with
  | [] => None
  | a :: r => match last_written k r with
              | Some v => Some v
              | None => if str_eqb (at_key a) k then Some (typed (value_result (at_val a))) else None
              end
  end.

Theorem lookup_written k l : forall acc,
  lookup_attr k (fold_left (fun m a => attr_insert (at_key a) (value_result (at_val a)) m) l acc) =
  match last_written k l with Some v => Some v | None => lookup_attr k acc end.
Proof.
  induction l as [|a r IH]; intros acc; cbn [fold_left last_written]; [reflexivity|].
  rewrite IH. destruct (last_written k r) as [v|]; [reflexivity|].
  unfold attr_insert. rewrite lookup_insert. destruct (str_eqb (at_key a) k); reflexivity.
Qed.

(* so the typed reader gets a numeric attribute as the token written last under its key, a string as that string *)
Corollary get_num_written (key : String.string) l tok :
  last_written (s2l key) l = Some (VNum tok) -> get_num key (attrs_result l) = Some tok.
Proof. intros H. unfold get_num, attrs_result. rewrite lookup_written, H. reflexivity. Qed.
Corollary get_text_written (key : String.string) l s :
  last_written (s2l key) l = Some (VStr s) -> get_text key (attrs_result l) = Some s.
Proof. intros H. unfold get_text, attrs_result. rewrite lookup_written, H. reflexivity. Qed.
Corollary get_absent (key : String.string) l :
  last_written (s2l key) l = None -> get_num key (attrs_result l) = None /\ get_text key (attrs_result l) = None.
Proof. intros H. unfold get_num, get_text, attrs_result. rewrite lookup_written, H. split; reflexivity. Qed.

(* A reader that gave a result found the attribute it requires, and got a good intermediate result where it went
   through one.  Stated as rules for a goal `reader = Ok y -> P` (apply …; intros x Hx): as an existential to be taken
   apart in a hypothesis the same fact is several times as slow to check, the rest of the reader being copied into
   each of its parts. *)
Lemma some_ok_inv {A B} (o : option A) (k : A -> res B) e y (P : Prop) :
  (forall x, o = Some x -> k x = Ok y -> P) -> match o with Some x => k x | None => Err e end = Ok y -> P.
Proof. destruct o as [x|]; [|discriminate]. intros H E. exact (H x eq_refl E). Qed.
Lemma res_ok_inv {A B} (r : res A) (k : A -> res B) y (P : Prop) :
  (forall x, r = Ok x -> k x = Ok y -> P) -> match r with Ok x => k x | Err e => Err e end = Ok y -> P.
Proof. destruct r as [x|e]; [|discriminate]. intros H E. exact (H x eq_refl E). Qed.
