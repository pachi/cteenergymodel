(* Proofs about the exact slab test (Model/Aabb.v): it decides "the ray meets the box at t >= 0",
   hence it is monotone under enlargement of the box and under joins. *)
From Coq Require Import QArith List Lqa.
From CTE Require Import Base.Num Model.Aabb Proofs.ListP Proofs.NumP.
Import ListNotations.
Local Open Scope Q_scope.

Definition hits (b : aabbq) (r : rayq) : Prop := exists t, 0 <= t /\ inside b (ray_at r t).

Definition within (t : Q) (i : Q * Q) : Prop := fst i <= t <= snd i.

Lemma div_neg a d : d < 0 -> a / d == (- a) / (- d).
Proof. intros H. field. lra. Qed.

Lemma axis_ival_spec o d lo hi : lo <= hi ->
  match axis_ival o d lo hi with
  | None => forall t, ~ lo <= o + t * d <= hi
  | Some a => forall t, lo <= o + t * d <= hi <-> Forall (within t) (match a with Some i => [i] | None => [] end)
  end.
Proof.
  intros Hlh. unfold axis_ival. destruct (qeqb_spec d 0) as [Ed|Ed].
  - (* the coordinate stays o *)
    assert (E : forall t, t * d == 0) by (intros t; rewrite Ed; apply Qmult_0_r).
    destruct (qleb_spec lo o); [destruct (qleb_spec o hi)|]; cbn [andb]; intros t; specialize (E t);
      [split; [constructor | lra] | lra | lra].
  - (* whatever the sign of d: t lies between the two quotients iff the product of its distances to them is <= 0,
       and d * d times that product is (p - lo) * (p - hi) for the point p = o + t * d *)
    intros t. rewrite Forall_one. unfold within. cbn [fst snd]. rewrite qmin_qmax_between.
    assert (Hdd : 0 < d * d) by (destruct (Q_dec d 0) as [[|]|]; [nra | nra | contradiction]).
    rewrite <- (Qmult_le_r _ 0 _ Hdd), Qmult_0_l.
    assert (E : (t - (lo - o) / d) * (t - (hi - o) / d) * (d * d) == (o + t * d - lo) * (o + t * d - hi)) by (field; exact Ed).
    rewrite E. apply between_prod, Hlh.
Qed.

(* a finite family of closed intervals meets [0, oo) iff max(0, lows) <= every high *)
Lemma ivals_meet (l : list (Q * Q)) :
  forallb (fun i => qleb (fold_left qmax (map fst l) 0) (snd i)) l = true <-> exists t, 0 <= t /\ Forall (within t) l.
Proof.
  rewrite forallb_forall. split.
  - intros H. exists (fold_left qmax (map fst l) 0). split; [apply fold_qmax_ge|]. apply Forall_forall.
    intros i Hi. split; [apply fold_qmax_ub, in_map, Hi | apply qleb_le, H, Hi].
  - intros [t [Ht H]] i Hi. rewrite Forall_forall in H. apply qleb_le, Qle_trans with t; [|apply H, Hi].
    apply fold_qmax_lub. split; [exact Ht|]. intros y [j [<- Hj]]%in_map_iff. apply H, Hj.
Qed.

Lemma ivals_spec b r : proper b ->
  match ivals b r with
  | None => forall t, ~ inside b (ray_at r t)
  | Some l => forall t, inside b (ray_at r t) <-> Forall (within t) l
  end.
Proof.
  intros [Px [Py Pz]]. unfold ivals.
  pose proof (axis_ival_spec (vx (ro r)) (vx (rd r)) _ _ Px) as Sx.
  pose proof (axis_ival_spec (vy (ro r)) (vy (rd r)) _ _ Py) as Sy.
  pose proof (axis_ival_spec (vz (ro r)) (vz (rd r)) _ _ Pz) as Sz.
  destruct (axis_ival (vx (ro r)) _ _ _) as [ax|]; [|intros t [H _]; exact (Sx t H)].
  destruct (axis_ival (vy (ro r)) _ _ _) as [ay|]; [|intros t [_ [H _]]; exact (Sy t H)].
  destruct (axis_ival (vz (ro r)) _ _ _) as [az|]; [|intros t [_ [_ H]]; exact (Sz t H)].
  intros t. rewrite !Forall_app, <- (Sx t), <- (Sy t), <- (Sz t). reflexivity.
Qed.

Theorem bhitq_spec b r : proper b -> (bhitq b r = true <-> hits b r).
Proof.
  intros P. pose proof (ivals_spec b r P) as S. unfold bhitq, hits. destruct (ivals b r) as [l|].
  - rewrite ivals_meet. setoid_rewrite S. reflexivity.
  - split; [discriminate | intros [t [_ H]]; destruct (S t H)].
Qed.

Lemma box_leb_iff a b : box_leb a b = true <->
  (vx (blo b) <= vx (blo a) /\ vy (blo b) <= vy (blo a) /\ vz (blo b) <= vz (blo a)) /\
  (vx (bhi a) <= vx (bhi b) /\ vy (bhi a) <= vy (bhi b) /\ vz (bhi a) <= vz (bhi b)).
Proof.
  (* by hand: rewriting with andb_true_iff and qleb_le under the iff is five times as dear to check *)
  unfold box_leb. split.
  - intros H. repeat (apply andb_prop in H; destruct H as [H ?]). repeat split; apply qleb_le; assumption.
  - intros [[A [B C]] [D [E F]]]. apply qleb_le in A, B, C, D, E, F. rewrite A, B, C, D, E, F. reflexivity.
Qed.

Lemma box_leb_spec a b : box_leb a b = true -> forall p, inside a p -> inside b p.
Proof. intros [[A [B C]] [D [E F]]]%box_leb_iff p [[X1 X2] [[Y1 Y2] [Z1 Z2]]]. unfold inside. repeat split; lra. Qed.

Lemma box_leb_proper a b : box_leb a b = true -> proper a -> proper b.
Proof. intros [[A [B C]] [D [E F]]]%box_leb_iff [X [Y Z]]. unfold proper. repeat split; lra. Qed.

Lemma properb_proper b : properb b = true -> proper b.
Proof. unfold properb. intros [[X Y]%andb_prop Z]%andb_prop. repeat split; apply qleb_le; assumption. Qed.

Theorem box_le_bhit a b r : proper a -> box_leb a b = true -> bhitq a r = true -> bhitq b r = true.
Proof.
  intros Pa Hle. rewrite !bhitq_spec by eauto using box_leb_proper.
  intros [t [Ht Hin]]. exists t. split; [exact Ht | apply (box_leb_spec a b Hle), Hin].
Qed.

Lemma box_join_le_l a b : box_leb a (box_join a b) = true.
Proof. apply box_leb_iff. cbn [box_join blo bhi vx vy vz]. repeat split; (apply qmin_lb_l || apply qmax_ub_l). Qed.
Lemma box_join_le_r a b : box_leb b (box_join a b) = true.
Proof. apply box_leb_iff. cbn [box_join blo bhi vx vy vz]. repeat split; (apply qmin_lb_r || apply qmax_ub_r). Qed.

Lemma inside_join a b p : inside a p -> inside (box_join a b) p /\ inside (box_join b a) p.
Proof. intros H. split; [apply (box_leb_spec a _ (box_join_le_l a b)), H | apply (box_leb_spec a _ (box_join_le_r b a)), H]. Qed.
