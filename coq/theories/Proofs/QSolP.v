(* What the C10, C14 and C20 results share about the q_sol;jul model (Model/QSolJul.v) and its tables *)
From Coq Require Import NArith QArith List Lia Lqa.
From CTE Require Import Base.Num Model.BModel Model.Props Model.QSolJul Proofs.ListP Proofs.NumP.
From CTEGen Require Import Tables.
Import ListNotations.
Local Open Scope Q_scope.

Lemma qdiv0_mult x a : ~ a == 0 -> qdiv0 x a * a == x.
Proof. intros H. unfold qdiv0. destruct (qeqb_spec a 0); [contradiction | field; exact H]. Qed.
Lemma qdiv0_zero a : qdiv0 0 a == 0.
Proof. unfold qdiv0. destruct (qeqb a 0); [reflexivity|]. unfold Qdiv. lra. Qed.

(* the per-orientation detail adds up to the totals, for any figure g of the detail that is the sum of f over the
   class *)
Lemma detail_sum (g : qdetail -> Q) (f : solitem -> Q) aref l :
  (forall l', g (detail_of l') = qsum (map f l')) ->
  qsum (map f l) == qsum (map (fun od => g (snd od)) (qs_detail (QSol_of_items aref l))).
Proof.
  intros Hg. unfold QSol_of_items. cbn [qs_detail]. rewrite qsum_flat_map.
  rewrite (qsum_classes (fun o i => orient_eqb (si_orient i) o) all_orients)
    by (intros i _; destruct (si_orient i); reflexivity).
  apply qsum_map_ext. intros o _. fold (of_orient o l). destruct (of_orient o l) as [|i l']; [reflexivity|].
  cbn [map snd]. rewrite Hg, (qsum_cons _ []), qsum_nil. cbn [map]. lra.
Qed.

(* no envelope window: every figure is a defined number, and it is 0 *)
Theorem no_window_all_zero aref :
  QSol_of_items aref [] = mkQSol (qdiv0 0 aref) 0 0 0 0 0 0 [].
Proof. reflexivity. Qed.

Theorem no_window_model zone p :
  solset p = [] -> exists d, QSol_model zone p = Some d /\ qs_Q d = 0 /\ qs_q d == 0 /\ qs_detail d = [].
Proof.
  intros H. unfold QSol_model, sol_items. rewrite H. eexists. split; [reflexivity|].
  rewrite no_window_all_zero. cbn [qs_Q qs_q qs_detail]. repeat split. apply qdiv0_zero.
Qed.

Definition zones32 : list N := map N.of_nat (seq 0 32).

(* exactly one table entry per zone and orientation, each with 12 months (the code's HashMap
   collect and dir[6] are then unambiguous and cannot fail) *)
Definition table_shape_ok : bool :=
  forallb (fun z => forallb (fun o =>
    match filter (fun e => match e with (z', o', _, _) => N.eqb z' z && orient_eqb o' o end) monthly with
    | [(_, _, dir, dif)] => Nat.eqb (length dir) 12 && Nat.eqb (length dif) 12 &&
                            forallb (qleb 0) dir && forallb (qleb 0) dif
    | _ => false end) all_orients) zones32 && Nat.eqb (length monthly) 288.
Lemma table_shape_ok_true : table_shape_ok = true.
Proof. vm_compute. reflexivity. Qed.

(* a table with exactly one entry for the zone and orientation, of twelve non-negative months: the search
   from the end finds it, and its seventh month gives a non-negative July total *)
Lemma july_total_in_unique tbl z o z' o' dir dif :
  filter (fun e => match e with (z', o', _, _) => N.eqb z' z && orient_eqb o' o end) tbl = [(z', o', dir, dif)] ->
  length dir = 12%nat -> length dif = 12%nat -> forallb (qleb 0) dir = true -> forallb (qleb 0) dif = true ->
  exists h, july_total_in tbl z o = Some h /\ 0 <= h.
Proof.
  intros E Ld Lf Pd Pf. unfold july_total_in. rewrite (find_rev_unique _ _ _ E).
  destruct (nth_error_forallb _ dir 6 ltac:(lia) Pd) as [a [-> Ha%qleb_le]].
  destruct (nth_error_forallb _ dif 6 ltac:(lia) Pf) as [b [-> Hb%qleb_le]].
  exists (a + b). split; [reflexivity | lra].
Qed.

Theorem table_total z o : In z zones32 -> exists h, july_total z o = Some h /\ 0 <= h.
Proof.
  (* table_shape_ok_true is handed to a function whose domain is written [table_shape_ok = true]: checking that, the
     kernel unfolds the constant and finds the same term; used directly, it would meet the constant against an
     [andb] and compare by evaluating the whole sweep, twice *)
  intros Hz. refine ((_ : table_shape_ok = true -> _) table_shape_ok_true).
  unfold table_shape_ok. intros [H _]%andb_prop. assert (Ho : In o all_orients) by (destruct o; cbn; tauto).
  rewrite forallb_forall in H. specialize (H z Hz).
  rewrite forallb_forall in H. specialize (H o Ho).
  destruct (filter _ monthly) as [|[[[z' o'] dir] dif] [|]] eqn:E; try discriminate H.
  apply andb_prop in H as [[[Ld%Nat.eqb_eq Lf%Nat.eqb_eq]%andb_prop Pd]%andb_prop Pf].
  exact (july_total_in_unique _ _ _ _ _ _ _ E Ld Lf Pd Pf).
Qed.

(* with complete tables the model never predicts a crash *)
Theorem qsol_defined zone p : In zone zones32 -> exists d, QSol_model zone p = Some d.
Proof.
  intros Hz. unfold QSol_model, sol_items.
  assert (H : exists l, all_some (map (sol_item zone p) (solset p)) = Some l).
  { induction (solset p) as [|w ws [l Hl]]; [exists []; reflexivity|]. cbn [map all_some]. rewrite Hl. unfold sol_item.
    destruct (table_total zone (np_orient (snd w)) Hz) as [h [-> _]]. eexists. reflexivity. }
  destruct H as [l ->]. eexists. reflexivity.
Qed.
