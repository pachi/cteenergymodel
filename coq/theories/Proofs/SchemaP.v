(* One object level of the format, generic in the field descriptions and in the value type: the
   serialiser omits the fields a skip predicate selects, the deserialiser restores absent fields from
   their defaults. ser1 and de1 restate the struct case of Schema.ser and Schema.de (Model/Schema.v) without
   the recursion into the field values; no lemma relates them to those functions. The lemmas serve
   C04_level_roundtrip (Properties/C04.v). *)
From Coq Require Import List String.
Import ListNotations.
Local Open Scope string_scope.

Section Level.
Variables (F V : Type).
Variable name : F -> string.
Variable skipb : F -> V -> bool.
Variable dflt : F -> option V.

Definition lookupv (k : string) (o : list (string * V)) : option V :=
  match find (fun p => String.eqb (fst p) k) o with Some p => Some (snd p) | None => None end.

Fixpoint ser1 (fs : list F) (o : list (string * V)) : list (string * V) :=
  match fs, o with
  | f :: fs', (k, x) :: o' => if skipb f x then ser1 fs' o' else (k, x) :: ser1 fs' o'
  | _, _ => []
  end.
Fixpoint de1 (fs : list F) (j : list (string * V)) : option (list (string * V)) :=
  match fs with
  | [] => Some []
  | f :: fs' =>
      match (match lookupv (name f) j with Some x => Some x | None => dflt f end), de1 fs' j with
      | Some x, Some r => Some ((name f, x) :: r)
      | _, _ => None
      end
  end.

Definition names_match (fs : list F) (o : list (string * V)) : Prop := map name fs = map fst o.

Lemma lookupv_cons k k' x (o : list (string * V)) :
  lookupv k ((k', x) :: o) = if String.eqb k' k then Some x else lookupv k o.
Proof. unfold lookupv. cbn [find fst]. destruct (String.eqb k' k); reflexivity. Qed.

Lemma lookupv_notin k (o : list (string * V)) : ~ In k (map fst o) -> lookupv k o = None.
Proof.
  intros H. unfold lookupv. destruct (find _ o) as [p|] eqn:E; [|reflexivity].
  apply find_some in E as [Hin <-%String.eqb_eq]. destruct H. apply in_map, Hin.
Qed.

Lemma ser1_incl fs : forall o, incl (ser1 fs o) o.
Proof.
  induction fs as [|f fs IH]; intros [|[k x] o]; cbn [ser1]; try apply incl_nil_l.
  destruct (skipb f x); [apply incl_tl, IH | apply incl_cons; [left; reflexivity | apply incl_tl, IH]].
Qed.

Lemma de1_skip_head fs : forall k x j, ~ In k (map name fs) -> de1 fs ((k, x) :: j) = de1 fs j.
Proof.
  induction fs as [|f fs IH]; intros k x j H; [reflexivity|]. cbn [de1].
  rewrite lookupv_cons, IH by (intros Hin; apply H; right; exact Hin).
  destruct (String.eqb_spec k (name f)) as [E|_]; [|reflexivity]. destruct H. left. symmetry. exact E.
Qed.
End Level.
