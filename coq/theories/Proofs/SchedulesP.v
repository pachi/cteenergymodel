(* Facts about the schedule models (Model/Schedules.v), and the notions the C17 results are stated in: the days a list of
   periods adds up to, the week in force on a day, calendar dates, prefix sums, the days a list of runs stands for *)
From Coq Require Import ZArith NArith QArith Bool List Arith Lia.
From CTE Require Import Model.BModel Model.Schedules Proofs.ListP Proofs.NumP.
Import ListNotations.
Local Open Scope nat_scope.

Definition counts_sum (vals : list (uuid * N)) : nat := fold_right Nat.add O (map (fun v => N.to_nat (snd v)) vals).
Definition weeks_nonempty (db : scheddb) (vals : list (uuid * N)) : Prop :=
  forall v, In v vals -> week_days_of db (fst v) <> [].
Definition weeks_7 (db : scheddb) (vals : list (uuid * N)) : Prop :=
  forall v, In v vals -> length (week_days_of db (fst v)) = 7.

Lemma cyc_take_length l skip count : l <> [] -> length (cyc_take l skip count) = count.
Proof. intros H. destruct l; [contradiction|]. unfold cyc_take. rewrite map_length, seq_length. reflexivity. Qed.
Lemma cyc_take_length_le l skip count : length (cyc_take l skip count) <= count.
Proof. destruct l; [apply Nat.le_0_l | rewrite cyc_take_length by discriminate; reflexivity]. Qed.

Lemma expand_from_length db vals : forall cur,
  weeks_nonempty db vals -> length (expand_from db vals cur) = counts_sum vals.
Proof.
  induction vals as [|[wid c] r IH]; intros cur H; [reflexivity|].
  cbn [expand_from]. rewrite app_length, cyc_take_length, IH.
  - reflexivity.
  - intros v Hv. apply H. right. exact Hv.
  - apply (H (wid, c)). left. reflexivity.
Qed.

(* the weekly schedule in force on day d (counted from the start of vals) *)
Fixpoint week_at (vals : list (uuid * N)) (d : nat) : option uuid :=
  match vals with
  | [] => None
  | (wid, c) :: r => if d <? N.to_nat c then Some wid else week_at r (d - N.to_nat c)
  end.

Lemma cyc_take_nth l skip count k :
  l <> [] -> k < count -> nth k (cyc_take l skip count) 0%N = nth ((skip + k) mod length l) l 0%N.
Proof.
  intros Hl Hk. destruct l as [|x l']; [contradiction|]. unfold cyc_take.
  set (f := fun k0 => nth ((skip + k0) mod length (x :: l')) (x :: l') 0%N).
  rewrite (nth_indep _ 0%N (f 0)) by (rewrite map_length, seq_length; exact Hk).
  rewrite map_nth. unfold f. rewrite seq_nth by exact Hk. reflexivity.
Qed.

Lemma expand_from_weekday db vals : forall cur d,
  weeks_7 db vals -> d < counts_sum vals ->
  exists wid, week_at vals d = Some wid /\
    nth d (expand_from db vals cur) 0%N = nth ((cur + d) mod 7) (week_days_of db wid) 0%N.
Proof.
  induction vals as [|[wid c] r IH]; intros cur d H7 Hd; [cbn in Hd; lia|].
  cbn [expand_from week_at]. change (counts_sum ((wid, c) :: r)) with (N.to_nat c + counts_sum r) in Hd.
  assert (Hw : length (week_days_of db wid) = 7) by (apply (H7 (wid, c)); left; reflexivity).
  assert (Hne : week_days_of db wid <> []) by (intros E; rewrite E in Hw; discriminate).
  destruct (Nat.ltb_spec d (N.to_nat c)) as [Hlt|Hge].
  - exists wid. split; [reflexivity|].
    rewrite app_nth1, cyc_take_nth, Hw, Nat.add_mod_idemp_l by (rewrite ?cyc_take_length; auto). reflexivity.
  - destruct (IH (cur + N.to_nat c) (d - N.to_nat c)) as [w [Hwa Hn]]; [intros v Hv; apply H7; right; exact Hv | lia |].
    exists w. split; [exact Hwa|].
    rewrite app_nth2, cyc_take_length, Hn by (rewrite ?cyc_take_length; assumption). do 2 f_equal. lia.
Qed.

Definition valid_date (m d : Z) : bool := (1 <=? m)%Z && (m <=? 12)%Z && (1 <=? d)%Z && (d <=? month_len m)%Z.

Lemma day_of_year_month m d : (1 <= m <= 12)%Z -> day_of_year d m = (cum_days m + d)%Z.
Proof.
  intros H. unfold day_of_year.
  (* the day shifts both sides alike; what is left is one closed equation for each of the twelve months *)
  enough (275 * m / 9 - 2 * ((m + 9) / 12) - 30 = cum_days m)%Z by lia.
  assert (C : (m = 1 \/ m = 2 \/ m = 3 \/ m = 4 \/ m = 5 \/ m = 6 \/ m = 7 \/ m = 8 \/ m = 9 \/ m = 10 \/ m = 11 \/ m = 12)%Z)
    by lia.
  decompose [or] C; subst m; reflexivity.
Qed.

Theorem day_of_year_calendar m d :
  valid_date m d = true -> day_of_year d m = (cum_days m + d)%Z.
Proof. unfold valid_date. rewrite !andb_true_iff, !Z.leb_le. intros H. apply day_of_year_month. lia. Qed.

Theorem day_of_year_31_dec : day_of_year 31 12 = 365%Z. Proof. reflexivity. Qed.

Fixpoint increasing_from (prev : Z) (l : list Z) : Prop :=
  match l with [] => True | e :: r => (prev < e)%Z /\ increasing_from e r end.
Fixpoint prefix_sums (acc : Z) (l : list Z) : list Z :=
  match l with [] => [] | x :: r => (acc + x)%Z :: prefix_sums (acc + x) r end.
Definition zsum (l : list Z) : Z := fold_right Z.add 0%Z l.

(* periods_from takes differences, prefix_sums adds them up again; only that the periods are positive needs the
   end dates to increase *)
Lemma prefix_sums_periods ends : forall prev, prefix_sums prev (periods_from prev ends) = ends.
Proof.
  induction ends as [|e r IH]; intros prev; [reflexivity|]. cbn [periods_from prefix_sums].
  replace (prev + (e - prev))%Z with e by lia. rewrite IH. reflexivity.
Qed.
Lemma zsum_periods ends : forall prev, zsum (periods_from prev ends) = (last ends prev - prev)%Z.
Proof.
  induction ends as [|e r IH]; intros prev; [cbn; lia|]. rewrite last_cons.
  change (zsum (periods_from prev (e :: r))) with (e - prev + zsum (periods_from e r))%Z. rewrite IH. lia.
Qed.
Lemma periods_from_length ends : forall prev, length (periods_from prev ends) = length ends.
Proof. induction ends as [|e r IH]; intros prev; cbn [periods_from length]; [|rewrite IH]; reflexivity. Qed.
Lemma periods_from_pos ends : forall prev,
  increasing_from prev ends -> Forall (fun p => (0 < p)%Z) (periods_from prev ends).
Proof. induction ends as [|e r IH]; intros prev H; [constructor|]. destruct H. constructor; [lia | apply IH; assumption]. Qed.

Definition runs_days (v : list (uuid * N)) : list uuid := flat_map (fun p => repeat (fst p) (N.to_nat (snd p))) v.

Lemma rle_from_expand l : forall cur n,
  runs_days (rle_from cur n l) = repeat cur (N.to_nat n) ++ l.
Proof.
  induction l as [|x r IH]; intros cur n.
  - cbn. rewrite !app_nil_r. reflexivity.
  - cbn [rle_from]. destruct (N.eqb_spec x cur) as [->|Hne].
    + rewrite IH. replace (N.to_nat (n + 1)) with (N.to_nat n + 1) by lia.
      rewrite repeat_app, <- app_assoc. reflexivity.
    + change (runs_days ((cur, n) :: rle_from x 1 r)) with (repeat cur (N.to_nat n) ++ runs_days (rle_from x 1 r)).
      rewrite IH. reflexivity.
Qed.

Local Open Scope Q_scope.
Theorem avg_load_no_area m sps t :
  occ_load_sum m sps = Some t -> occ_area sps <= (1 # 8388608) -> avg_load m sps = Some 0.
Proof. intros Ht H. unfold avg_load. rewrite Ht. apply qltb_ge in H. rewrite H. reflexivity. Qed.
