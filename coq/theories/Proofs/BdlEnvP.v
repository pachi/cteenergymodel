(* About Model/BdlTypedEnv.v: what wall_of leaves in the fields of a wall that it does not copy from the block as they
   stand. The wall theorems of C18 are the parts of wall_of_fields; loc_is is the question they ask of the wall's LOCATION. *)
From Coq Require Import NArith QArith String.
From CTE Require Import Model.Bdl Proofs.BdlP Model.BdlTyped Model.BdlTypedEnv Proofs.BdlTypedP.
From CTEGen Require Import BdlTypes.
Local Open Scope N_scope.
Local Open Scope string_scope.

Definition loc_is (w : twall) (x : string) : bool := match twl_location w with Some l => str_eqb l (s2l x) | None => false end.

Lemma wall_of_fields b w : wall_of b = Ok w ->
  twl_bounds w = (if N.eqb (b_type b) BT_InteriorWall
                  then (if match get_text "INT-WALL-TYPE" (b_attrs b) with Some k => str_eqb k (s2l "ADIABATIC") | None => false end then TB_ADIABATIC else TB_INTERIOR)
                  else if N.eqb (b_type b) BT_UndergroundWall then TB_GROUND else TB_EXTERIOR) /\
  twl_tilt w = match get_num "TILT" (b_attrs b) with
               | Some tk => NTok tk
               | None => if N.eqb (b_type b) BT_Roof || loc_is w "TOP" then NConst 0 else if loc_is w "BOTTOM" then NConst 180 else NConst 90
               end /\
  twl_azimuth w = (if loc_is w "BOTTOM" then NConst 180 else num_or (get_num "AZIMUTH" (b_attrs b)) 0) /\
  twl_x w = num_or (get_num "X" (b_attrs b)) 0 /\ twl_y w = num_or (get_num "Y" (b_attrs b)) 0 /\ twl_z w = num_or (get_num "Z" (b_attrs b)) 0 /\
  twl_nextto w = (match twl_bounds w with TB_INTERIOR => get_text "NEXT-TO" (b_attrs b) | _ => None end).
Proof.
  unfold wall_of, loc_is. apply some_ok_inv; intros sp _. apply some_ok_inv; intros cns _.
  apply res_ok_inv; intros loc _. apply res_ok_inv; intros bd Hbd [= <-].
  (* the projections reduced at once: or else each of the conjuncts to come carries the record in its type *)
  simpl. split; [|repeat split]. revert Hbd.
  case (N.eqb (b_type b) BT_InteriorWall).
  - case (get_text "INT-WALL-TYPE" (b_attrs b)); [intros k|discriminate].
    destruct (str_eqb k (s2l "STANDARD")) eqn:E; [apply str_eqb_eq in E; subst k; intros [= <-]; reflexivity|].
    case (str_eqb k (s2l "ADIABATIC")); [intros [= <-]; reflexivity | discriminate].
  - case (N.eqb (b_type b) BT_UndergroundWall); [intros [= <-]; reflexivity|].
    case (_ || _); [intros [= <-]; reflexivity | discriminate].
Qed.
