(* What the C05 results (Properties/C05.v) use about Model/History.v: a machine that only reads its state
   (run_read_only), and the test the correspondence applies to the collected observations (functionalb) *)
From Coq Require Import NArith Bool List.
From CTE Require Import Model.History.

Lemma combine_map_r {A B} (f : A -> B) l : combine l (map f l) = map (fun a => (a, f a)) l.
Proof. induction l as [|a l IH]; [reflexivity|]. cbn. rewrite IH. reflexivity. Qed.

Section MachineP.
  Variables (state op out : Type).
  Variable step : state -> op -> state * out.
  Hypothesis RO : read_only step.

  (* the state never changes, so every operation returns what it returns when run alone from the initial state *)
  Lemma run_read_only s h : run step s h = (s, map (alone step s) h).
  Proof.
    induction h as [|o r IH]; cbn [run map]; [reflexivity|]. unfold alone at 1.
    pose proof (RO s o) as H. destruct (step s o) as [s1 x]. cbn [fst snd] in *. subst s1.
    rewrite IH. reflexivity.
  Qed.

  Corollary after_any_prefix s0 pre o : snd (step (fst (run step s0 pre)) o) = alone step s0 o.
  Proof. rewrite run_read_only. reflexivity. Qed.
End MachineP.

(* what the harness records of a history h with outputs xs: per operation, its key and the digest of its output *)
Definition observe {op out} (key : op -> N) (dig : out -> N) (h : list op) (xs : list out) : list obs :=
  map (fun p => mkObs (key (fst p)) (dig (snd p))) (combine h xs).

Lemma observe_read_only {state op out} (step : state -> op -> state * out) key dig s0 h :
  read_only step ->
  observe key dig h (snd (run step s0 h)) = map (fun o => mkObs (key o) (dig (alone step s0 o))) h.
Proof.
  intros RO. unfold observe. rewrite run_read_only by exact RO. cbn [snd].
  rewrite combine_map_r. apply map_map.
Qed.

(* the test functionalb applies to a pair of observations *)
Lemma same_key_same_out a b :
  negb (N.eqb (ob_key a) (ob_key b)) || N.eqb (ob_out a) (ob_out b) = true <->
  (ob_key a = ob_key b -> ob_out a = ob_out b).
Proof.
  destruct (N.eqb_spec (ob_key a) (ob_key b)), (N.eqb_spec (ob_out a) (ob_out b)); cbn;
    intuition (congruence || discriminate).
Qed.

Lemma functionalb_spec l : functionalb l = true <->
  forall a b, In a l -> In b l -> ob_key a = ob_key b -> ob_out a = ob_out b.
Proof.
  unfold functionalb. rewrite forallb_forall. setoid_rewrite forallb_forall.
  setoid_rewrite same_key_same_out. split; intros H; [intros a b Ha Hb | intros a Ha b Hb]; auto.
Qed.

(* observations that are the image of a function in which the key determines the output *)
Lemma functionalb_map {A} (g : A -> obs) l :
  (forall a b, ob_key (g a) = ob_key (g b) -> ob_out (g a) = ob_out (g b)) -> functionalb (map g l) = true.
Proof.
  intros H. apply functionalb_spec. intros ? ? [a [<- _]]%in_map_iff [b [<- _]]%in_map_iff. apply H.
Qed.

(* a writing machine can fail the test: the test is not vacuous *)
Definition cache_step (s : option N) (o : N) : option N * N :=
  match s with Some v => (s, v) | None => (Some o, o) end.

Lemma first_clash_none l : first_clash l = None -> functionalb l = true.
Proof.
  rewrite functionalb_spec. induction l as [|x r IH]; [intros _ ? ? []|]. cbn [first_clash].
  destruct (find _ r) eqn:F; [discriminate|]. intros H. specialize (IH H).
  assert (Hx : forall b, In b r -> ob_key x = ob_key b -> ob_out x = ob_out b).
  { (* what first_clash looks for is the negation of the test *)
    intros b Hb. apply same_key_same_out, negb_false_iff. rewrite negb_orb, negb_involutive.
    exact (find_none _ _ F b Hb). }
  intros a b [<-|Ha] [<-|Hb] Hk; auto. symmetry. auto.
Qed.
