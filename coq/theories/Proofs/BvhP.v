(* Proofs about the generic BVH (Model/Bvh.v).  When every box covers the elements below it, skipping a missed box
   skips no hit, so the traversal returns what a search through the leaves from left to right returns (trav_find)
   and the tree answers like the exhaustive test over its elements in any order (bvh_complete); a split that makes
   progress builds such a tree (build_wf). *)
From Coq Require Import List Arith Bool Permutation Lia.
From CTE Require Import Model.Bvh Proofs.ListP.

Section BVH.
Variables (T aabb ray : Type).
Variable box : T -> aabb.
Variable hit : T -> ray -> bool.
Variable bhit : aabb -> ray -> bool.
Variable join : aabb -> aabb -> aabb.
Variable empty_box : aabb.
Hypothesis hit_in_box : forall e r, hit e r = true -> bhit (box e) r = true.

Notation tree := (tree T aabb).
Notation trav := (trav T aabb ray hit bhit).
Notation wf := (wf T aabb ray box bhit).
Notation covers := (covers T aabb ray box bhit).
Notation elems := (@elems T aabb).
Notation tbox := (@tbox T aabb).
Notation size := (@size T aabb).
Notation ssize := (@ssize T aabb).

Lemma size_pos (t : tree) : 1 <= size t. Proof. destruct t; cbn; lia. Qed.

Lemma covers_miss b es r : covers b es -> bhit b r = false -> find (fun e => hit e r) es = None.
Proof.
  intros Hc Hb. destruct (find _ es) as [e|] eqn:E; [|reflexivity]. destruct (find_some _ _ E) as [Hin Hh].
  rewrite (Hc e r Hin (hit_in_box e r Hh)) in Hb. discriminate.
Qed.

Lemma wf_covers_elems (t : tree) : wf t -> covers (tbox t) (elems t).
Proof. destruct t; cbn; [exact (fun H => H) | exact (@proj1 _ _)]. Qed.

(* the box of an inner node covers what is below it when it is hit whenever the box of either child is *)
Lemma covers_node b (l r : tree) : wf l -> wf r ->
  (forall q, bhit (tbox l) q = true -> bhit b q = true) -> (forall q, bhit (tbox r) q = true -> bhit b q = true) ->
  covers b (elems l ++ elems r).
Proof.
  intros Wl Wr Hl Hr e q [Hin|Hin]%in_app_or Hb;
    [apply Hl, (wf_covers_elems l Wl e q Hin Hb) | apply Hr, (wf_covers_elems r Wr e q Hin Hb)].
Qed.

Lemma trav_find fuel : forall (st : list tree) r, ssize st <= fuel -> Forall wf st ->
  trav fuel st r = find (fun e => hit e r) (flat_map elems st).
Proof.
  induction fuel as [|f IH]; intros [|t st'] r Hs Hw; try reflexivity; cbn [ssize] in Hs; pose proof (size_pos t).
  - lia.
  - apply Forall_cons_iff in Hw. destruct Hw as [Hwt Hw']. cbn [trav flat_map].
    destruct (bhit (tbox t) r) eqn:Hb.
    + destruct t as [b es|b l rr]; cbn [elems].
      * rewrite find_app, IH by (lia || assumption). reflexivity.
      * rewrite <- app_assoc. destruct Hwt as [_ [Hl Hr]].
        apply (IH (l :: rr :: st')); [cbn [ssize size] in *; lia | repeat constructor; assumption].
    + rewrite find_app, (covers_miss _ _ _ (wf_covers_elems t Hwt) Hb). apply IH; [lia | exact Hw'].
Qed.

Theorem bvh_complete (t : tree) es r :
  wf t -> Permutation (elems t) es ->
  blocked_tree T aabb ray hit bhit t r = blocked_list T ray hit es r.
Proof.
  intros Hw Hp. unfold blocked_tree, blocked_list. rewrite trav_find; [|cbn; lia | repeat constructor; exact Hw].
  cbn [flat_map]. rewrite app_nil_r, <- existsb_find.
  apply eq_iff_eq_true. rewrite !existsb_exists. setoid_rewrite Hp. reflexivity.
Qed.

(* only the construction needs this; completeness above does not *)
Hypothesis join_keeps_hit : forall a b r, bhit a r = true -> bhit (join a b) r = true /\ bhit (join b a) r = true.

Lemma boxes_covers es : covers (boxes T aabb box join empty_box es) es.
Proof.
  intros e r Hin Hb. apply (fold_join_has join box (fun b => bhit b r = true) (fun a b => join_keeps_hit a b r)).
  right. exists e. auto.
Qed.

Variable part : list T -> list T * list T.
Notation build := (build T aabb box join empty_box part).

Theorem build_wf maxn : progressive T part maxn ->
  forall fuel es, length es <= fuel -> 1 <= fuel ->
  exists t, build fuel maxn es = Some t /\ wf t /\ Permutation (elems t) es.
Proof.
  intros Hprog. induction fuel as [|f IH]; intros es Hlen Hf; [lia|].
  cbn [build]. destruct (Nat.leb_spec (length es) maxn) as [Hle|Hgt].
  - exists (Leaf (boxes T aabb box join empty_box es) es). split; [reflexivity|]. split; [apply boxes_covers | apply Permutation_refl].
  - destruct (part es) as [l r] eqn:Hp. destruct (Hprog es l r Hgt Hp) as [Hl [Hr Hperm]].
    pose proof (Permutation_length Hperm) as Hpl. rewrite app_length in Hpl.
    destruct (IH l) as [a [Ha [Hwa Hpa]]]; [lia | lia |]. destruct (IH r) as [b [Hb [Hwb Hpb]]]; [lia | lia |].
    rewrite Ha, Hb. eexists. split; [reflexivity|]. cbn [wf elems]. repeat split; try assumption.
    + apply covers_node; try assumption; intros q H; apply (join_keeps_hit _ _ _ H).
    + rewrite <- Hperm. apply Permutation_app; assumption.
Qed.

End BVH.

Lemma halves_progress {T} (es l r : list T) : halves es = (l, r) -> 2 <= length es ->
  length l < length es /\ length r < length es /\ Permutation (l ++ r) es.
Proof.
  unfold halves. intros [<- <-]%pair_equal_spec H.
  assert (Hd : 1 <= length es / 2) by (apply Nat.div_le_lower_bound; lia).
  assert (Hu : length es / 2 < length es) by (apply Nat.div_lt; lia).
  rewrite firstn_length, skipn_length, firstn_skipn. repeat split; (lia || reflexivity).
Qed.

Theorem part_fb_progressive {T} (p : list T -> T -> bool) maxn : 1 <= maxn -> progressive T (part_fb p) maxn.
Proof.
  intros Hm es l r Hlen Hp. unfold part_fb in Hp.
  destruct (partition (p es) es) as [l0 r0] eqn:E. apply partition_perm in E.
  rewrite <- (Permutation_length E) in *. rewrite <- E.
  destruct l0 as [|x l0]; [|destruct r0 as [|y r0]]; try (apply halves_progress; [exact Hp | lia]).
  injection Hp as <- <-. rewrite app_length in *. cbn [length] in *. repeat split; (lia || reflexivity).
Qed.
