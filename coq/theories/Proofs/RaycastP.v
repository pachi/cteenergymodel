(* Proofs for C13: validation of a dumped tree, pose isometry, point-in-polygon translation
   invariance, reveal surfaces.
   Polynomial identities are closed by lra: it normalises both sides as ring does, at a tenth of ring's cost over Q. *)
From Coq Require Import QArith List Lqa Morphisms.
From CTE Require Import Base.Num Model.Aabb Model.Poly Model.Bvh Model.Raycast Proofs.NumP Proofs.AabbP Proofs.BvhP.
Import ListNotations.
Local Open Scope Q_scope.

Lemma wf_treeb_sound (t : btree) : wf_treeb t = true -> proper (tbox elt aabbq t) /\ wf elt aabbq rayq ebox bhitq t.
Proof.
  induction t as [b es|b l IHl r IHr]; cbn [wf_treeb wf tbox].
  - intros [P Hw]%andb_prop. split; [apply properb_proper, P|]. intros e q Hin. rewrite forallb_forall in Hw.
    destruct (andb_prop _ _ (Hw e Hin)) as [Pe Le]. apply box_le_bhit; [apply properb_proper, Pe | exact Le].
  - intros [[[[P Hl]%andb_prop Hr]%andb_prop Hwl]%andb_prop Hwr]%andb_prop.
    destruct (IHl Hwl) as [Pl Wl], (IHr Hwr) as [Pr Wr]. split; [apply properb_proper, P|]. split; [|split; assumption].
    apply covers_node; auto; intros q; apply box_le_bhit; assumption.
Qed.

(* vectors up to ==; the operations of poses respect it *)
Definition veq (a b : vec3) : Prop := vx a == vx b /\ vy a == vy b /\ vz a == vz b.

Global Instance veq_equiv : Equivalence veq.
Proof.
  split; [intros a | intros a b [A [B C]] | intros a b c [A [B C]] [A' [B' C']]]; repeat split;
    (reflexivity || (symmetry; assumption) || (etransitivity; eassumption)).
Qed.
Global Instance vadd_veq : Proper (veq ==> veq ==> veq) vadd.
Proof. intros a a' [A [B C]] b b' [A' [B' C']]. unfold veq, vadd. cbn [vx vy vz]. repeat split; lra. Qed.
Global Instance rot_x_veq : Proper (Qeq ==> Qeq ==> veq ==> veq) rot_x.
Proof. intros c c' Hc s s' Hs a a' [A [B C]]. unfold veq, rot_x. cbn [vx vy vz]. rewrite A, B, C, Hc, Hs. repeat split; reflexivity. Qed.
Global Instance rot_z_veq : Proper (Qeq ==> Qeq ==> veq ==> veq) rot_z.
Proof. intros c c' Hc s s' Hs a a' [A [B C]]. unfold veq, rot_z. cbn [vx vy vz]. rewrite A, B, C, Hc, Hs. repeat split; reflexivity. Qed.

Global Instance to_global_veq p : Proper (veq ==> veq) (to_global p).
Proof. intros a b H. unfold to_global, rot_global. rewrite H. reflexivity. Qed.

(* a pose turns twice in a plane; the plane rotation by (c, s) is undone by the one by (c, -s) and keeps dot
   products when c^2 + s^2 = 1 *)
Lemma turn_back c s x y : c * c + s * s == 1 ->
  (x * c - y * s) * c - (x * s + y * c) * - s == x /\ (x * c - y * s) * - s + (x * s + y * c) * c == y.
Proof.
  intros H. split; [transitivity (x * (c * c + s * s)) | transitivity (y * (c * c + s * s))]; try lra; rewrite H; lra.
Qed.
Lemma turn_dot c s x y x' y' : c * c + s * s == 1 ->
  (x * c - y * s) * (x' * c - y' * s) + (x * s + y * c) * (x' * s + y' * c) == x * x' + y * y'.
Proof. intros H. transitivity ((x * x' + y * y') * (c * c + s * s)); [lra | rewrite H; lra]. Qed.

Lemma rot_z_back c s v : c * c + s * s == 1 -> veq (rot_z c (- s) (rot_z c s v)) v.
Proof. intros H. destruct (turn_back c s (vx v) (vy v) H). repeat split; (assumption || reflexivity). Qed.
Lemma rot_x_back c s v : c * c + s * s == 1 -> veq (rot_x c (- s) (rot_x c s v)) v.
Proof. intros H. destruct (turn_back c s (vy v) (vz v) H). repeat split; (assumption || reflexivity). Qed.
Lemma rot_z_dot c s a b : c * c + s * s == 1 -> vdot (rot_z c s a) (rot_z c s b) == vdot a b.
Proof. intros H. unfold vdot, rot_z. cbn [vx vy vz]. rewrite (turn_dot c s _ _ _ _ H). reflexivity. Qed.
Lemma rot_x_dot c s a b : c * c + s * s == 1 -> vdot (rot_x c s a) (rot_x c s b) == vdot a b.
Proof. intros H. unfold vdot, rot_x. cbn [vx vy vz]. rewrite <- !Qplus_assoc, (turn_dot c s _ _ _ _ H). reflexivity. Qed.

Lemma vadd_vsub a b : veq (vsub (vadd a b) a) b.
Proof. unfold veq, vsub, vadd. cbn [vx vy vz]. repeat split; lra. Qed.

(* a pose is an affine map *)
Lemma to_global_vadd p v d : veq (to_global p (vadd v d)) (vadd (to_global p v) (rot_global p d)).
Proof. unfold veq, to_global, rot_global, rot_z, rot_x, vadd. cbn [vx vy vz]. repeat split; lra. Qed.

Definition shift (d : pt2) (q : pt2) : pt2 := (fst q + fst d, snd q + snd d).

Lemma pip_toggle_shift x y vj vi d :
  pip_toggle (x + fst d) (y + snd d) (shift d vj) (shift d vi) = pip_toggle x y vj vi.
Proof.
  unfold pip_toggle, shift. cbn [fst snd]. rewrite !qleb_shift. do 2 f_equal. apply qleb_proper; lra.
Qed.

Lemma pip_loop_shift x y d l : forall vj acc,
  pip_loop (x + fst d) (y + snd d) (shift d vj) (map (shift d) l) acc = pip_loop x y vj l acc.
Proof.
  induction l as [|vi r IH]; intros vj acc; [reflexivity|]. cbn [map pip_loop].
  rewrite pip_toggle_shift. apply IH.
Qed.

Fixpoint quad_eq (a b : quad) : Prop :=
  match a, b with
  | [], [] => True
  | u :: a', v :: b' => veq u v /\ quad_eq a' b'
  | _, _ => False
  end.

(* the code poses each reveal at a corner v of the window, turned by (ca, sa, ct, st), and gives its outline in that
   frame.  If this turn takes every outline point k q to what the wall's own turn makes of an offset f q, the surface
   is the wall pose applied to the points v + f q *)
Lemma sub_pose_quad p v ca sa ct st (k : pt2 -> pt2) (f : pt2 -> vec3) qs vs :
  (forall q, veq (rot_z ca sa (rot_x ct st (corner3 (k q)))) (rot_global p (f q))) ->
  quad_eq (map (fun q => vadd v (f q)) qs) vs ->
  quad_eq (map (fun q => to_global (pose_at p v ca sa ct st) (corner3 (k q))) qs) (map (to_global p) vs).
Proof.
  intros Hf. revert vs. induction qs as [|q qs IH]; intros [|v' vs]; cbn [map quad_eq]; try tauto.
  intros [Hv H]. split; [|apply IH, H]. rewrite <- Hv, to_global_vadd, <- Hf. reflexivity.
Qed.

Definition roof_pose : pose := mkPose (mkV 0 0 3) 1 0 1 0.   (* horizontal roof at z = 3, azimuth 0, tilt 0 *)
