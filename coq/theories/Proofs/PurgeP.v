(* What the C16 results (Properties/C16.v) use about purge (Model/Purge.v). Every collection of `purge m` is a
   `keep`: the original collection filtered by membership of the id in a list of used ids. Hence membership in a
   `keep` (In_keep), what each list of used ids contains (In_used_...), the declarative reachability in which the
   results are stated, and what the checker reports after purge (purge_check). *)
From Coq Require Import Qabs List.
From CTE Require Import Model.BModel Model.Checks Model.Purge Proofs.ListP Proofs.NumP Proofs.ChecksP.
Import ListNotations.
Local Open Scope nat_scope.

(* facts about map, filter and flat_map that the library states otherwise or lacks *)
Lemma in_map_ex {A B} (f : A -> B) l y : In y (map f l) <-> exists x, In x l /\ f x = y.
Proof. rewrite in_map_iff. split; intros [x [H1 H2]]; exists x; auto. Qed.

Lemma filter_idem {A} (f : A -> bool) l : filter f (filter f l) = filter f l.
Proof. rewrite filter_filter. apply filter_ext. intros x. apply andb_diag. Qed.

Lemma filter_ext_in' {A} (f g : A -> bool) l :
  (forall x, In x l -> f x = g x) -> filter f l = filter g l.
Proof. exact (filter_ext_in f g l). Qed.

Lemma flat_map_ext_in {A B} (f g : A -> list B) l :
  (forall x, In x l -> f x = g x) -> flat_map f l = flat_map g l.
Proof. intros H. rewrite !flat_map_concat_map. f_equal. apply map_ext_in, H. Qed.

Lemma incl_flat_map {A B} (f : A -> list B) l l' : incl l l' -> incl (flat_map f l) (flat_map f l').
Proof. intros H y [a [Ha Hy]]%in_flat_map. apply in_flat_map. exists a. auto. Qed.

(* order is kept: the result of every filter is a sublist of its input *)
Inductive sublist {A} : list A -> list A -> Prop :=
| sl_nil : sublist [] []
| sl_skip x l1 l2 : sublist l1 l2 -> sublist l1 (x :: l2)
| sl_keep x l1 l2 : sublist l1 l2 -> sublist (x :: l1) (x :: l2).

Lemma filter_sublist {A} (f : A -> bool) l : sublist (filter f l) l.
Proof.
  induction l as [|a l IH]; cbn; [constructor|]. destruct (f a); constructor; exact IH.
Qed.

Lemma In_keep {A} (idf : A -> uuid) used l x :
  In x (keep idf used l) <-> In x l /\ In (idf x) used.
Proof. unfold keep. rewrite filter_In, mem_In. reflexivity. Qed.

Lemma keep_keep {A} (idf : A -> uuid) used l : keep idf used (keep idf used l) = keep idf used l.
Proof. apply filter_idem. Qed.

Lemma mem_map_keep {A} (idf : A -> uuid) used l x :
  In x used -> mem x (map idf (keep idf used l)) = mem x (map idf l).
Proof.
  intros Hu. apply eq_true_iff_eq. rewrite !mem_In, !in_map_ex. setoid_rewrite In_keep.
  split; intros [a [Ha <-]]; exists a; tauto.
Qed.

(* Declarative reachability: x_reach m i says that an element that purge keeps refers to i;
   kept_x m i adds that i is listed in m. *)
Definition space_reach (m : model) (s : space) : Prop :=
  exists w, In w (m_walls m) /\ (w_space w = s_id s \/ w_next w = Some (s_id s)).
Definition kept_space (m : model) (s : space) : Prop := In s (m_spaces m) /\ space_reach m s.

Definition loads_reach (m : model) (l : loads) : Prop :=
  exists s, kept_space m s /\ s_loads s = Some (ld_id l).
Definition kept_loads (m : model) (l : loads) : Prop := In l (m_loads m) /\ loads_reach m l.
Definition thermostat_reach (m : model) (t : thermostat) : Prop :=
  exists s, kept_space m s /\ s_thermostat s = Some (th_id t).
Definition kept_thermostat (m : model) (t : thermostat) : Prop :=
  In t (m_thermostats m) /\ thermostat_reach m t.

Definition year_reach (m : model) (y : sched) : Prop :=
  (exists l, kept_loads m l /\
     (ld_people_sch l = Some (sc_id y) \/ ld_equip_sch l = Some (sc_id y) \/ ld_light_sch l = Some (sc_id y))) \/
  (exists t, kept_thermostat m t /\ (th_max t = Some (sc_id y) \/ th_min t = Some (sc_id y))).
Definition kept_year (m : model) (y : sched) : Prop := In y (sch_year (m_sched m)) /\ year_reach m y.
Definition week_reach (m : model) (w : sched) : Prop :=
  exists y, kept_year m y /\ In (sc_id w) (map fst (sc_values y)).
Definition kept_week (m : model) (w : sched) : Prop := In w (sch_week (m_sched m)) /\ week_reach m w.
Definition day_reach (m : model) (d : schedday) : Prop :=
  exists w, kept_week m w /\ In (sd_id d) (map fst (sc_values w)).

Definition wallcons_reach (m : model) (c : wallcons) : Prop :=
  exists w, In w (m_walls m) /\ w_cons w = wc_id c.
Definition kept_wallcons m c := In c (c_wallcons (m_cons m)) /\ wallcons_reach m c.
Definition wincons_reach (m : model) (c : wincons) : Prop :=
  exists w, In w (m_windows m) /\ win_cons w = wnc_id c.
Definition kept_wincons m c := In c (c_wincons (m_cons m)) /\ wincons_reach m c.
Definition material_reach (m : model) (x : material) : Prop :=
  exists c l, kept_wallcons m c /\ In l (wc_layers c) /\ l_mat l = m_id x.
Definition glass_reach (m : model) (x : glass) : Prop :=
  exists c, kept_wincons m c /\ wnc_glass c = gl_id x.
Definition frame_reach (m : model) (x : frame) : Prop :=
  exists c, kept_wincons m c /\ wnc_frame c = fr_id x.
Definition tb_reach (t : tbridge) : Prop := (f32_eps < Qabs (tb_l t))%Q.

Lemma tb_kept_spec t : tb_kept t = true <-> tb_reach t.
Proof. apply qltb_lt. Qed.

Lemma In_opt_list {A} (o : option A) x : In x (opt_list o) <-> o = Some x.
Proof. destruct o; cbn; intuition congruence. Qed.

Lemma In_used_spaces ws x :
  In x (used_spaces ws) <-> exists w, In w ws /\ (w_space w = x \/ w_next w = Some x).
Proof. unfold used_spaces. rewrite in_flat_map. cbn [In]. setoid_rewrite In_opt_list. reflexivity. Qed.

Lemma In_used_wallcons ws x : In x (used_wallcons ws) <-> exists w, In w ws /\ w_cons w = x.
Proof. apply in_map_ex. Qed.

Lemma In_used_wincons ws x : In x (used_wincons ws) <-> exists w, In w ws /\ win_cons w = x.
Proof. apply in_map_ex. Qed.

Lemma In_used_materials cs x :
  In x (used_materials cs) <-> exists c l, In c cs /\ In l (wc_layers c) /\ l_mat l = x.
Proof.
  unfold used_materials. rewrite in_flat_map. setoid_rewrite in_map_ex. split.
  - intros [c [Hc [l Hl]]]. exists c, l. split; [exact Hc | exact Hl].
  - intros [c [l [Hc Hl]]]. exists c. split; [exact Hc | exists l; exact Hl].
Qed.

Lemma In_used_glasses cs x : In x (used_glasses cs) <-> exists c, In c cs /\ wnc_glass c = x.
Proof. apply in_map_ex. Qed.

Lemma In_used_frames cs x : In x (used_frames cs) <-> exists c, In c cs /\ wnc_frame c = x.
Proof. apply in_map_ex. Qed.

Lemma In_used_loads ss x : In x (used_loads ss) <-> exists s, In s ss /\ s_loads s = Some x.
Proof. unfold used_loads. rewrite in_flat_map. setoid_rewrite In_opt_list. reflexivity. Qed.

Lemma In_used_thermostats ss x :
  In x (used_thermostats ss) <-> exists s, In s ss /\ s_thermostat s = Some x.
Proof. unfold used_thermostats. rewrite in_flat_map. setoid_rewrite In_opt_list. reflexivity. Qed.

Lemma In_used_years ls ts x :
  In x (used_years ls ts) <->
  (exists l, In l ls /\ (ld_people_sch l = Some x \/ ld_equip_sch l = Some x \/ ld_light_sch l = Some x)) \/
  (exists t, In t ts /\ (th_max t = Some x \/ th_min t = Some x)).
Proof.
  unfold used_years. rewrite in_app_iff, !in_flat_map. repeat setoid_rewrite in_app_iff.
  setoid_rewrite In_opt_list. reflexivity.
Qed.

Lemma In_used_sub ss x : In x (used_sub ss) <-> exists s, In s ss /\ In x (map fst (sc_values s)).
Proof. apply in_flat_map. Qed.

Lemma check_wall_purge m w : In w (m_walls m) -> check_wall (purge m) w = check_wall m w.
Proof.
  intros Hw.
  assert (Hs : forall x, w_space w = x \/ w_next w = Some x -> In x (used_spaces (m_walls m))).
  { intros x H. apply In_used_spaces. exists w. auto. }
  assert (Hc : In (w_cons w) (used_wallcons (m_walls m))) by (apply In_used_wallcons; exists w; auto).
  unfold check_wall, space_ids, wallcons_ids, purge. cbn [m_spaces m_cons c_wallcons].
  rewrite !mem_map_keep by auto. destruct (w_next w) as [n|]; [|reflexivity].
  rewrite mem_map_keep by auto. reflexivity.
Qed.

Lemma check_win_purge m w : In w (m_windows m) -> check_win (purge m) w = check_win m w.
Proof.
  intros Hw. unfold check_win, wincons_ids, purge. cbn [m_cons c_wincons].
  rewrite mem_map_keep; [reflexivity|]. apply In_used_wincons. exists w. auto.
Qed.

(* the checker after purge: only the warnings of the removed bridges go *)
Theorem purge_check m :
  check (purge m) =
  flat_map (check_wall m) (m_walls m) ++ flat_map (check_win m) (m_windows m) ++
  flat_map check_tb (filter tb_kept (m_tbs m)).
Proof.
  unfold check. f_equal; [|f_equal]; apply flat_map_ext_in; [apply check_wall_purge | apply check_win_purge].
Qed.
