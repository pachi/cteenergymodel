(* Facts about the exact-rational helpers of Base/Num.v *)
From Coq Require Import ZArith QArith Qabs Qround List Lia Lqa Permutation Morphisms.
From CTE Require Import Base.Num.
Import ListNotations.
Local Open Scope Q_scope.

(* what each comparison decides, in a form fit for case analysis *)
Lemma qleb_spec a b : BoolSpec (a <= b) (b < a) (qleb a b).
Proof.
  unfold qleb. destruct (Qle_bool a b) eqn:E; constructor; [apply Qle_bool_iff, E|].
  apply Qnot_le_lt. rewrite <- Qle_bool_iff, E. discriminate.
Qed.
Lemma qltb_spec a b : BoolSpec (a < b) (b <= a) (qltb a b).
Proof. change (qltb a b) with (negb (qleb b a)). destruct (qleb_spec b a); constructor; assumption. Qed.
Lemma qeqb_spec a b : BoolSpec (a == b) (~ a == b) (qeqb a b).
Proof.
  unfold qeqb. destruct (Qeq_bool a b) eqn:E; constructor; [apply Qeq_bool_iff, E|].
  rewrite <- Qeq_bool_iff, E. discriminate.
Qed.

Lemma qleb_le a b : qleb a b = true <-> a <= b.
Proof. exact (Qle_bool_iff a b). Qed.
Lemma qleb_gt a b : qleb a b = false <-> b < a.
Proof. destruct (qleb_spec a b); split; (lra || discriminate || reflexivity). Qed.
Lemma qltb_lt a b : qltb a b = true <-> a < b.
Proof. destruct (qltb_spec a b); split; (lra || discriminate || reflexivity). Qed.
Lemma qltb_ge a b : qltb a b = false <-> b <= a.
Proof. destruct (qltb_spec a b); split; (lra || discriminate || reflexivity). Qed.
Lemma qeqb_eq a b : qeqb a b = true <-> a == b.
Proof. exact (Qeq_bool_iff a b). Qed.
Lemma qeqb_neq a b : qeqb a b = false <-> ~ a == b.
Proof. destruct (qeqb_spec a b); split; (tauto || discriminate). Qed.

Lemma qleb_shift a b d : qleb (a + d) (b + d) = qleb a b.
Proof. destruct (qleb_spec a b), (qleb_spec (a + d) (b + d)); (reflexivity || lra). Qed.

Global Instance qleb_proper : Proper (Qeq ==> Qeq ==> eq) qleb.
Proof. exact Qleb_comp. Qed.
Global Instance qltb_proper : Proper (Qeq ==> Qeq ==> eq) qltb.
Proof. intros a a' Ha b b' Hb. unfold qltb. rewrite Ha, Hb. reflexivity. Qed.
Global Instance qeqb_proper : Proper (Qeq ==> Qeq ==> eq) qeqb.
Proof. exact Qeqb_comp. Qed.

Lemma qmax_ub_l a b : a <= qmax a b.
Proof. unfold qmax. destruct (qleb_spec a b); lra. Qed.
Lemma qmax_ub_r a b : b <= qmax a b.
Proof. unfold qmax. destruct (qleb_spec a b); lra. Qed.
Lemma qmin_lb_l a b : qmin a b <= a.
Proof. unfold qmin. destruct (qleb_spec a b); lra. Qed.
Lemma qmin_lb_r a b : qmin a b <= b.
Proof. unfold qmin. destruct (qleb_spec a b); lra. Qed.

(* qmax is the least upper bound, also folded over a list; dually qmin *)
Lemma qmax_lub a b t : qmax a b <= t <-> a <= t /\ b <= t.
Proof. unfold qmax. destruct (qleb_spec a b); split; [split | intros [] | split | intros []]; lra. Qed.
Lemma qmin_glb a b t : t <= qmin a b <-> t <= a /\ t <= b.
Proof. unfold qmin. destruct (qleb_spec a b); split; [split | intros [] | split | intros []]; lra. Qed.

Lemma fold_qmax_lub r : forall x t, fold_left qmax r x <= t <-> x <= t /\ forall y, In y r -> y <= t.
Proof.
  induction r as [|z r IH]; intros x t; cbn [fold_left In]; [tauto|]. rewrite IH, qmax_lub. split.
  - intros [[Hx Hz] H]. split; [exact Hx|]. intros y [<-|Hy]; auto.
  - intros [Hx H]. auto.
Qed.
Lemma fold_qmin_glb r : forall x t, t <= fold_left qmin r x <-> t <= x /\ forall y, In y r -> t <= y.
Proof.
  induction r as [|z r IH]; intros x t; cbn [fold_left In]; [tauto|]. rewrite IH, qmin_glb. split.
  - intros [[Hx Hz] H]. split; [exact Hx|]. intros y [<-|Hy]; auto.
  - intros [Hx H]. auto.
Qed.
Lemma fold_qmax_ge r x : x <= fold_left qmax r x.
Proof. exact (proj1 (proj1 (fold_qmax_lub r x _) (Qle_refl _))). Qed.
Lemma fold_qmax_ub r x y : In y r -> y <= fold_left qmax r x.
Proof. exact (proj2 (proj1 (fold_qmax_lub r x _) (Qle_refl _)) y). Qed.
Lemma fold_qmin_le r x : fold_left qmin r x <= x.
Proof. exact (proj1 (proj1 (fold_qmin_glb r x _) (Qle_refl _))). Qed.
Lemma fold_qmin_lb r x y : In y r -> fold_left qmin r x <= y.
Proof. exact (proj2 (proj1 (fold_qmin_glb r x _) (Qle_refl _)) y). Qed.

(* betweenness without a case on the order: t lies between a and b iff (t - a)(t - b) <= 0 *)
Lemma between_prod a b t : a <= b -> (a <= t <= b <-> (t - a) * (t - b) <= 0).
Proof. intros H. split; [intros []; nra | intros H0; split; nra]. Qed.
Lemma qmin_qmax_between a b t : qmin a b <= t <= qmax a b <-> (t - a) * (t - b) <= 0.
Proof.
  unfold qmin, qmax. destruct (qleb_spec a b) as [H|H]; [apply between_prod, H|].
  rewrite (between_prod b a t), Qmult_comm by lra. reflexivity.
Qed.

Lemma qsum_nil : qsum [] = 0. Proof. reflexivity. Qed.
Lemma qsum_cons a l : qsum (a :: l) == a + qsum l.
Proof. unfold qsum. cbn [fold_right]. apply Qred_correct. Qed.
Lemma qsum_app a b : qsum (a ++ b) == qsum a + qsum b.
Proof. induction a as [|x a IH]; cbn [app]; rewrite ?qsum_cons, ?qsum_nil; [lra|]. rewrite IH. lra. Qed.

Lemma qsum_perm a b : Permutation a b -> qsum a == qsum b.
Proof.
  induction 1 as [|x l l' _ IH|x y l|l l' l'' _ IH1 _ IH2]; rewrite ?qsum_cons.
  - reflexivity.
  - rewrite IH. reflexivity.
  - lra.
  - rewrite IH1. exact IH2.
Qed.

Lemma qsum_map_ext {A} (f g : A -> Q) l : (forall x, In x l -> f x == g x) -> qsum (map f l) == qsum (map g l).
Proof.
  induction l as [|a l IH]; intros H; cbn [map]; rewrite ?qsum_cons; [reflexivity|].
  rewrite (H a (or_introl eq_refl)), IH; [reflexivity|]. intros x Hx. apply H. right. exact Hx.
Qed.

Lemma qsum_map_le {A} (f g : A -> Q) l : (forall x, In x l -> f x <= g x) -> qsum (map f l) <= qsum (map g l).
Proof.
  induction l as [|a l IH]; intros H; cbn [map]; rewrite ?qsum_cons; [lra|].
  pose proof (H a (or_introl eq_refl)).
  assert (qsum (map f l) <= qsum (map g l)) by (apply IH; intros x Hx; apply H; right; exact Hx). lra.
Qed.

Lemma qsum_map_scal {A} (c : Q) (f : A -> Q) l : qsum (map (fun x => c * f x) l) == c * qsum (map f l).
Proof. induction l as [|a l IH]; cbn [map]; rewrite ?qsum_cons; [cbn; lra|]. rewrite IH. lra. Qed.

Lemma qsum_map_nonneg {A} (f : A -> Q) l : (forall x, In x l -> 0 <= f x) -> 0 <= qsum (map f l).
Proof.
  intros H. rewrite <- (Qmult_0_l (qsum (map f l))), <- qsum_map_scal.
  apply qsum_map_le. intros x Hx. specialize (H x Hx). lra.
Qed.

Lemma qsum_map_plus {A} (f g : A -> Q) l :
  qsum (map (fun x => f x + g x) l) == qsum (map f l) + qsum (map g l).
Proof. induction l as [|a l IH]; cbn [map]; rewrite ?qsum_cons; [cbn; lra|]. rewrite IH. lra. Qed.

Lemma qsum_filter_split {A} (f : A -> Q) (p : A -> bool) l :
  qsum (map f l) == qsum (map f (filter p l)) + qsum (map f (filter (fun x => negb (p x)) l)).
Proof.
  induction l as [|a l IH]; cbn [map filter]; [cbn; lra|]. rewrite qsum_cons, IH.
  destruct (p a); cbn [negb map]; rewrite qsum_cons; lra.
Qed.

Lemma qsum_flat_map {A B} (f : B -> Q) (g : A -> list B) l :
  qsum (map f (flat_map g l)) == qsum (map (fun a => qsum (map f (g a))) l).
Proof.
  induction l as [|a l IH]; cbn [flat_map map]; [reflexivity|].
  rewrite map_app, qsum_app, qsum_cons, IH. reflexivity.
Qed.

Lemma qsum_filter_ind {A} (f : A -> Q) p l :
  qsum (map f (filter p l)) == qsum (map (fun x => if p x then f x else 0) l).
Proof.
  induction l as [|a l IH]; cbn [filter map]; [reflexivity|]. rewrite qsum_cons, <- IH.
  destruct (p a); cbn [map]; rewrite ?qsum_cons; lra.
Qed.

(* a sum splits over the classes of a classifier: [cls k x] says that x is of class k, and every element is of
   exactly one of the classes [ks] *)
Lemma qsum_classes {A K} (cls : K -> A -> bool) ks (f : A -> Q) l :
  (forall x, In x l -> length (filter (fun k => cls k x) ks) = 1%nat) ->
  qsum (map f l) == qsum (map (fun k => qsum (map f (filter (cls k) l))) ks).
Proof.
  induction l as [|a l IH]; intros H.
  - clear H. induction ks as [|k ks IHk]; cbn [map filter]; rewrite ?qsum_cons, <- ?IHk; reflexivity.
  - (* the head adds [f a] to each class it is in; these indicator terms, summed over [ks], give [f a] once *)
    rewrite (qsum_map_ext _ (fun k => (if cls k a then f a else 0) + qsum (map f (filter (cls k) l)))).
    2:{ intros k _. cbn [filter]. destruct (cls k a); cbn [map]; rewrite ?qsum_cons; lra. }
    rewrite qsum_map_plus, <- IH, <- (qsum_filter_ind (fun _ => f a)) by (intros x Hx; apply H; right; exact Hx).
    specialize (H a (or_introl eq_refl)). destruct (filter _ ks) as [|k [|]]; try discriminate H.
    cbn [map]. rewrite !qsum_cons, qsum_nil. lra.
Qed.

Lemma qsum_map_perm {A} (f g : A -> Q) l l' :
  Permutation l l' -> (forall x, In x l -> f x == g x) -> qsum (map f l) == qsum (map g l').
Proof. intros Hl H. rewrite (qsum_map_ext f g l H). apply qsum_perm, Permutation_map, Hl. Qed.

(* a weighted sum lies between the bounds of its terms times the total weight, hence the weighted mean between
   the bounds *)
Lemma qsum_weighted_between {A} (w v : A -> Q) l lo hi :
  (forall i, In i l -> 0 <= w i) -> (forall i, In i l -> lo <= v i <= hi) ->
  lo * qsum (map w l) <= qsum (map (fun i => w i * v i) l) <= hi * qsum (map w l).
Proof.
  intros Hw Hv. rewrite <- !qsum_map_scal.
  split; apply qsum_map_le; intros i Hi; pose proof (Hw i Hi); pose proof (Hv i Hi); nra.
Qed.
Lemma weighted_mean_between {A} (w v : A -> Q) l lo hi :
  (forall i, In i l -> 0 <= w i) -> 0 < qsum (map w l) -> (forall i, In i l -> lo <= v i <= hi) ->
  lo <= qsum (map (fun i => w i * v i) l) / qsum (map w l) <= hi.
Proof.
  intros Hw Hpos Hv. destruct (qsum_weighted_between w v l lo hi Hw Hv).
  split; [apply Qle_shift_div_l | apply Qle_shift_div_r]; lra.
Qed.

(* the plain mean of a non-empty list is the weighted one with weights 1 *)
Lemma inject_nat_pos n : (0 < n)%nat -> 0 < inject_Z (Z.of_nat n).
Proof. intros H. change 0 with (inject_Z 0). rewrite <- Zlt_Qlt. lia. Qed.
Lemma qsum_ones {A} (l : list A) : qsum (map (fun _ => 1) l) == inject_Z (Z.of_nat (length l)).
Proof.
  induction l as [|a l IH]; [reflexivity|]. cbn [map length].
  rewrite qsum_cons, IH, Nat2Z.inj_succ, <- Z.add_1_l, inject_Z_plus. reflexivity.
Qed.
Lemma plain_mean_between {A} (v : A -> Q) l lo hi : l <> [] -> (forall i, In i l -> lo <= v i <= hi) ->
  lo <= qsum (map v l) / inject_Z (Z.of_nat (length l)) <= hi.
Proof.
  intros Hne Hv. rewrite <- (qsum_ones l), (qsum_map_ext v (fun i => 1 * v i)) by (intros; ring).
  apply weighted_mean_between; [intros; lra | | exact Hv].
  rewrite qsum_ones. apply inject_nat_pos. destruct l; [contradiction | cbn; lia].
Qed.

Lemma inv_antitone a b : 0 < a -> a <= b -> 1 / b <= 1 / a.
Proof.
  intros Ha Hab. apply Qle_shift_div_l; [lra|].
  assert (E : 1 / b * a == a / b) by (field; lra). rewrite E. apply Qle_shift_div_r; lra.
Qed.

Lemma Qdiv_le_compat_r x y c : 0 <= c -> x <= y -> x / c <= y / c.
Proof. intros Hc H. apply Qmult_le_compat_r; [exact H | apply Qinv_le_0_compat, Hc]. Qed.

(* the integer part: its bounds determine it *)
Lemma Qfloor_bounds x : inject_Z (Qfloor x) <= x < inject_Z (Qfloor x) + 1.
Proof. split; [apply Qfloor_le|]. rewrite <- (inject_Z_plus _ 1). apply Qlt_floor. Qed.

Lemma Qfloor_unique x z : inject_Z z <= x < inject_Z z + 1 -> Qfloor x = z.
Proof.
  intros [H1 H2]. pose proof (Qfloor_bounds x) as [H3 H4].
  enough (Qfloor x < z + 1 /\ z < Qfloor x + 1)%Z by lia.
  rewrite !Zlt_Qlt, !inject_Z_plus. change (inject_Z 1) with 1. lra.
Qed.

Lemma Qfloor_plus_Z x (k : Z) : Qfloor (x + inject_Z k) = (Qfloor x + k)%Z.
Proof. apply Qfloor_unique. rewrite inject_Z_plus. pose proof (Qfloor_bounds x). lra. Qed.

Lemma Qfloor_div_bounds v c : 0 < c -> inject_Z (Qfloor (v / c)) * c <= v < inject_Z (Qfloor (v / c)) * c + c.
Proof. intros Hc. pose proof (Qfloor_bounds (v / c)). assert (v / c * c == v) by (field; lra). nra. Qed.

Lemma round_haz_close x : Qabs (inject_Z (round_haz x) - x) <= 1 # 2.
Proof.
  unfold round_haz. apply Qabs_Qle_condition.
  destruct (qleb 0 x); [pose proof (Qfloor_bounds (x + (1 # 2))) | pose proof (Qfloor_bounds (- x + (1 # 2))); rewrite inject_Z_opp];
    split; lra.
Qed.

Lemma round2_close x : Qabs (round2 x - x) <= 1 # 200.
Proof.
  unfold round2. pose proof (round_haz_close (x * 100)) as H.
  apply Qabs_Qle_condition in H. apply Qabs_Qle_condition.
  assert (E : inject_Z (round_haz (x * 100)) / 100 - x == (inject_Z (round_haz (x * 100)) - x * 100) / 100) by field.
  rewrite E. split; [apply Qle_shift_div_l | apply Qle_shift_div_r]; lra.
Qed.

Lemma round_haz_mono x y : x <= y -> (round_haz x <= round_haz y)%Z.
Proof.
  intros H. unfold round_haz. destruct (qleb_spec 0 x), (qleb_spec 0 y); try lra.
  - apply Qfloor_resp_le. lra.
  - assert (0 <= Qfloor (y + (1#2)))%Z by (change 0%Z with (Qfloor 0); apply Qfloor_resp_le; lra).
    assert (0 <= Qfloor (- x + (1#2)))%Z by (change 0%Z with (Qfloor 0); apply Qfloor_resp_le; lra).
    lia.
  - assert (Qfloor (- y + (1#2)) <= Qfloor (- x + (1#2)))%Z by (apply Qfloor_resp_le; lra). lia.
Qed.

Lemma round2_mono x y : x <= y -> round2 x <= round2 y.
Proof.
  intros H. unfold round2. apply Qdiv_le_compat_r; [lra|]. rewrite <- Zle_Qle. apply round_haz_mono. lra.
Qed.
