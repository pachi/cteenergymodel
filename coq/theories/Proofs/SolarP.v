(* The one fact about Model/Solar.v that the unit-vector identities of C20 need: cos2 = 1 - sin2, as a rule that
   rewrites a monomial, so that `ring [(cos2d x)]` decides identities between polynomials in sind x and cosd x *)
From Coq Require Import Reals.
From CTE Require Import Model.Solar.
Local Open Scope R_scope.

Lemma cos2d x : cosd x * cosd x = 1 - sind x * sind x.
Proof. exact (cos2 (rad x)). Qed.
