(* Proofs about Model/Conv3.v: the algebra of turning points, outlines and whole buildings.
   Polynomial identities are closed by lra: it normalises both sides as ring does, at a tenth of ring's cost over Q. *)
From Coq Require Import QArith Qabs List Lqa.
From CTE Require Import Base.Num Model.Aabb Model.Conv3.
Local Open Scope Q_scope.

Definition veq (a b : vec3) : Prop := vx a == vx b /\ vy a == vy b /\ vz a == vz b.

Lemma cw_compose a b : fst (cw (compose a b)) == fst (compose (cw a) (cw b)) /\ snd (cw (compose a b)) == snd (compose (cw a) (cw b)).
Proof. unfold cw, compose; cbn. split; lra. Qed.

(* turning clockwise by dev and then by e is turning clockwise by their sum, for any point *)
Lemma rotz_cw_compose dev e p : veq (rotz (cw (compose dev e)) p) (rotz (cw e) (rotz (cw dev) p)).
Proof. unfold veq, rotz, cw, compose. cbn [fst snd vx vy vz]. repeat split; lra. Qed.

Lemma rotz_vadd r a b a' b' : veq a' (rotz r a) -> veq b' (rotz r b) -> veq (vadd a' b') (rotz r (vadd a b)).
Proof. unfold veq, rotz, vadd. cbn [vx vy vz]. intros [A [B C]] [A' [B' C']]. repeat split; lra. Qed.

(* a turn keeps heights, and multiplies squared horizontal distances by cos^2 + sin^2 (= 1 for an angle) *)
Theorem rotz_height r p : vz (rotz r p) == vz p.
Proof. reflexivity. Qed.
Theorem rotz_dist2 r p q :
  (vx (rotz r p) - vx (rotz r q)) * (vx (rotz r p) - vx (rotz r q)) + (vy (rotz r p) - vy (rotz r q)) * (vy (rotz r p) - vy (rotz r q)) ==
  (fst r * fst r + snd r * snd r) * ((vx p - vx q) * (vx p - vx q) + (vy p - vy q) * (vy p - vy q)).
Proof. unfold rotz; cbn. lra. Qed.

(* the shoelace sum of a turned outline and of a shifted one, from any previous vertex on (the induction moves it);
   the shift leaves a boundary term, which vanishes for a closed outline (prev = first) *)
Definition rot2 (r : cs) (p : Q * Q) : Q * Q := (fst r * fst p - snd r * snd p, snd r * fst p + fst r * snd p).
Lemma shoelace2_rot r first prev l :
  shoelace2 (rot2 r first) (rot2 r prev) (map (rot2 r) l) == (fst r * fst r + snd r * snd r) * shoelace2 first prev l.
Proof.
  revert prev. induction l as [|p l IH]; intros prev; cbn [map shoelace2].
  - unfold rot2; cbn. lra.
  - rewrite IH. unfold rot2; cbn. lra.
Qed.
Definition shift2 (d : Q * Q) (p : Q * Q) : Q * Q := (fst p + fst d, snd p + snd d).
Lemma shoelace2_shift d first prev l :
  shoelace2 (shift2 d first) (shift2 d prev) (map (shift2 d) l) ==
  shoelace2 first prev l + (fst d * (snd first - snd prev) - snd d * (fst first - fst prev)).
Proof.
  revert prev. induction l as [|p l IH]; intros prev; cbn [map shoelace2].
  - unfold shift2; cbn. lra.
  - rewrite IH. unfold shift2; cbn. lra.
Qed.

(* WallGeom::to_global_coords_matrix for a vertical element (tilt 90): position + Rz(azimuth) * Rx(90) * (x, y, 0) *)
Definition wall_point (pos : vec3) (az : cs) (x y : Q) : vec3 := vadd pos (rotz az (mkV x 0 y)).
(* its normal Rz(azimuth) * Rx(90) * (0, 0, 1) *)
Definition wall_normal (az : cs) : vec3 := rotz az (mkV 0 (-1) 0).

(* raising a point of the space raises its global position by as much *)
Lemma to_global_lift dev s p z off :
  veq (to_global dev s (vadd (lift p z) off)) (vadd (to_global dev s (vadd (lift p 0) off)) (mkV 0 0 z)).
Proof.
  (* in x and y the right side is the left side + 0 as it stands; unfolding the coordinates for lra is much dearer *)
  repeat split; [symmetry; apply Qplus_0_r | symmetry; apply Qplus_0_r | cbn; lra].
Qed.

(* the rectangle of width w and height h standing on a horizontal segment P1 P2 = w (cos az, sin az, 0) *)
Lemma wall_rect P1 P2 P3 P4 az w h :
  vx P2 - vx P1 == w * fst az -> vy P2 - vy P1 == w * snd az -> vz P2 == vz P1 ->
  veq P3 (vadd P2 (mkV 0 0 h)) -> veq P4 (vadd P1 (mkV 0 0 h)) ->
  veq (wall_point P1 az 0 0) P1 /\ veq (wall_point P1 az w 0) P2 /\ veq (wall_point P1 az w h) P3 /\ veq (wall_point P1 az 0 h) P4.
Proof.
  unfold veq, wall_point, rotz, vadd. cbn [vx vy vz]. intros Hx Hy Hz [A3 [B3 C3]] [A4 [B4 C4]]. repeat split; lra.
Qed.

(* the comparison used by the correspondence accepts equal point lists *)
Lemma close_refl tol a : 0 <= tol -> close tol a a = true.
Proof.
  intros H. unfold close, qleb.
  assert (E : forall x, Qle_bool (Qabs (x - x)) tol = true).
  { intros x. apply Qle_bool_iff. setoid_replace (x - x) with 0 by lra. exact H. }
  rewrite !E. reflexivity.
Qed.
