(* Proofs about Model/Kyg.v: a printed element line of KyGananciasSolares.txt is read back *)
From Coq Require Import NArith Bool List.
From CTE Require Import Model.Bdl Model.BdlDoc Proofs.ListP Proofs.BdlP.
From CTE Require Import Model.Kyg.
Import ListNotations.
Local Open Scope N_scope.

(* a field as written between separators: no ';', nothing to trim *)
Definition fld_ok (f : str) : bool := negb (has semi f) && str_eqb (trim f) f.

Lemma fields_sep (ls : list str) : ls <> [] -> forallb fld_ok ls = true -> fields (sep ls) = ls.
Proof.
  intros Hne H. unfold fields, sep. rewrite split_on_join; [|exact Hne|].
  - revert H. apply map_fixed. intros x [_ Hx]%andb_prop. apply str_eqb_eq, Hx.
  - revert H. apply forallb_impl. intros x [Hx%negb_true_iff _]%andb_prop. apply has_false_forallb, Hx.
Qed.

(* a line whose first field starts with the word of an element kind is not empty, not a comment, and is
   split into its fields *)
Lemma elem_line tipo rest : (prefixb s_muro tipo || prefixb s_ventana tipo || prefixb s_pptt tipo) = true ->
  rest <> [] -> forallb fld_ok (tipo :: rest) = true ->
  exists c r, sep (tipo :: rest) = c :: r /\ (c =? 35) = false /\
    (prefixb s_muro (c :: r) || prefixb s_ventana (c :: r) || prefixb s_pptt (c :: r)) = true /\
    fields (c :: r) = tipo :: rest.
Proof.
  intros Hp Hne Hf. destruct tipo as [|c t]; [discriminate|]. exists c, (t ++ semi :: sep rest).
  assert (E : sep ((c :: t) :: rest) = c :: t ++ semi :: sep rest) by (apply join_cons, Hne).
  repeat split.
  - exact E.
  - destruct (N.eqb_spec c 35) as [->|]; [discriminate Hp | reflexivity].
  - change (c :: t ++ semi :: sep rest) with ((c :: t) ++ semi :: sep rest).
    apply orb_prop in Hp as [[H|H]%orb_prop|H]; rewrite (prefixb_app _ _ _ H), ?orb_true_r; reflexivity.
  - rewrite <- E. apply fields_sep; [discriminate | exact Hf].
Qed.

(* The three kinds of element line, with any number of columns after those the parser reads. *)
Lemma wall_line n a u b more : forallb fld_ok (n :: a :: u :: b :: more) = true -> all_num [a; u; b] = true ->
  parse_kline (sep (s_muro :: n :: a :: u :: b :: more)) =
  match more with t :: o :: c :: _ => LWall (mkKW n a u b (Some (t, o, c))) | _ => LWall (mkKW n a u b None) end.
Proof.
  intros Hf Hn. destruct (elem_line s_muro (n :: a :: u :: b :: more) eq_refl) as (c & r & E & Hc & Hp & Hfl); [discriminate | exact Hf |].
  unfold parse_kline. rewrite E, Hc, Hp, Hfl.
  change (str_eqb s_muro s_ventana) with false. change (str_eqb s_muro s_muro) with true. cbv iota. rewrite Hn.
  reflexivity.
Qed.

Lemma win_line n a u o ff more : forallb fld_ok (n :: a :: u :: o :: ff :: more) = true -> all_num [a; u; ff] = true ->
  parse_kline (sep (s_ventana :: n :: a :: u :: o :: ff :: more)) =
  match more with
  | g :: u1 :: u2 :: inf :: cn :: _ =>
      if all_num [g; u1; u2; inf] then LWin (mkKN n a u (replace_O_W o) ff (Some (g, u1, u2, inf, cn))) else LErr 2
  | _ => LWin (mkKN n a u (replace_O_W o) ff None)
  end.
Proof.
  intros Hf Hn. destruct (elem_line s_ventana (n :: a :: u :: o :: ff :: more) eq_refl) as (c & r & E & Hc & Hp & Hfl); [discriminate | exact Hf |].
  unfold parse_kline. rewrite E, Hc, Hp, Hfl.
  change (str_eqb s_ventana s_ventana) with true. cbv iota. rewrite Hn. reflexivity.
Qed.

Lemma tb_line lg psi n more : forallb fld_ok (lg :: psi :: n :: more) = true -> all_num [lg; psi] = true ->
  parse_kline (sep (s_pptt :: lg :: psi :: n :: more)) = LTb (mkKT lg psi n (match more with sd :: _ => sd | [] => [] end)).
Proof.
  intros Hf Hn. destruct (elem_line s_pptt (lg :: psi :: n :: more) eq_refl) as (c & r & E & Hc & Hp & Hfl); [discriminate | exact Hf |].
  unfold parse_kline. rewrite E, Hc, Hp, Hfl.
  change (str_eqb s_pptt s_ventana) with false. change (str_eqb s_pptt s_muro) with false. change (str_eqb s_pptt s_pptt) with true.
  cbv iota. rewrite Hn. reflexivity.
Qed.

(* the elements a printer may write (C18_kyg_wall_roundtrip, _window_, _bridge_): every field fld_ok, the numeric columns numbers *)
Definition wf_kwall (w : kwall) : bool :=
  forallb fld_ok ([kw_name w; kw_a w; kw_u w; kw_btrx w] ++ match kw_new w with Some (t, o, c) => [t; o; c] | None => [] end) &&
  all_num [kw_a w; kw_u w; kw_btrx w].

Definition wf_kwin (w : kwin) : bool :=
  forallb fld_ok ([kn_name w; kn_a w; kn_u w; kn_orient w; kn_ff w] ++
                  match kn_new w with Some (g, u1, u2, i, c) => [g; u1; u2; i; c] | None => [] end) &&
  all_num [kn_a w; kn_u w; kn_ff w] &&
  match kn_new w with Some (g, u1, u2, i, c) => all_num [g; u1; u2; i] | None => true end.

Definition wf_ktb (t : ktb) : bool :=
  forallb fld_ok [kt_l t; kt_psi t; kt_name t; kt_sisdim t] && all_num [kt_l t; kt_psi t].

Theorem kline_comment r : parse_kline (35 :: r) = LSkip.
Proof. reflexivity. Qed.
