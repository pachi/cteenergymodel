(* Proofs about Model/Tbl.v: an element / space written as a name line and a values line is read back *)
From Coq Require Import NArith ZArith Bool List.
From CTE Require Import Model.Bdl Model.BdlDoc Proofs.BdlP.
From CTE Require Import Model.Tbl.
Import ListNotations.
Local Open Scope N_scope.

Definition word_ok (f : str) : bool := match f with [] => false | _ => true end && forallb (fun c => negb (is_ws c)) f.

Lemma split_ws_aux_word f : forall r cur, forallb (fun c => negb (is_ws c)) f = true ->
  split_ws_aux (f ++ r) cur = split_ws_aux r (rev f ++ cur).
Proof.
  induction f as [|c f IH]; intros r cur; [reflexivity|]. intros [Hc%negb_true_iff Hf]%andb_prop.
  cbn [app split_ws_aux rev]. rewrite Hc, (IH r (c :: cur) Hf), <- app_assoc. reflexivity.
Qed.

(* a word is handed out when white space follows or the text ends (hd's default is a blank) *)
Lemma split_ws_word w r : word_ok w = true -> is_ws (hd 32 r) = true -> split_ws_aux (w ++ r) [] = w :: split_ws_aux r [].
Proof.
  intros [Hne Hw]%andb_prop Hr. rewrite (split_ws_aux_word w r [] Hw), app_nil_r.
  destruct (rev w) as [|c u] eqn:E; apply (f_equal (@rev N)) in E; rewrite rev_involutive in E; subst w; [discriminate|].
  destruct r as [|x r]; cbn [hd split_ws_aux] in *; [|rewrite Hr]; reflexivity.
Qed.

Lemma split_ws_skip pre s : all_wsb pre = true -> split_ws_aux (pre ++ s) [] = split_ws_aux s [].
Proof. induction pre as [|c p IH]; [reflexivity|]. intros [Hc Hp]%andb_prop. cbn [app split_ws_aux]. rewrite Hc. exact (IH Hp). Qed.

(* words separated by single blanks, with any blanks in front *)
Lemma split_ws_words (ws : list str) : forall (pre : str), forallb word_ok ws = true -> all_wsb pre = true ->
  split_ws_aux (pre ++ join [32] ws) [] = ws.
Proof.
  induction ws as [|w [|w2 r] IH]; intros pre Hw Hpre; rewrite (split_ws_skip pre _ Hpre); [reflexivity| |];
    apply andb_prop in Hw as [Hw Hr].
  - pose proof (split_ws_word w [] Hw eq_refl) as E. rewrite app_nil_r in E. exact E.
  - rewrite join_cons, (split_ws_word w ([32] ++ join [32] (w2 :: r)) Hw eq_refl) by discriminate. f_equal. exact (IH [32] Hr eq_refl).
Qed.

Lemma split_ws_line name (ws : list str) pre : word_ok name = true -> forallb word_ok ws = true -> all_wsb pre = true ->
  split_ws (name ++ 32 :: pre ++ join [32] ws) = name :: ws.
Proof.
  intros Hn Hw Hp. unfold split_ws. rewrite (split_ws_word name (32 :: pre ++ join [32] ws) Hn eq_refl). f_equal. exact (split_ws_words ws (32 :: pre) Hw Hp).
Qed.

Definition wf_telem (e : telem) (s1 s2 : str) : bool :=
  word_ok (te_name e) && forallb word_ok (te_vals e ++ [te_type e; s1; s2]) && Nat.eqb (List.length (te_vals e)) 7 &&
  forallb is_number (te_vals e) && existsb (str_eqb (te_type e)) elem_types &&
  match parse_i32 s1, parse_i32 s2 with Some z1, Some z2 => Z.eqb z1 (te_surf e) && Z.eqb z2 (te_space e) | _, _ => false end.

(* C18_tbl_element_roundtrip: name line + values line (any blanks in front of the values, single blanks between
   them) -> the element *)
Theorem elem_roundtrip e s1 s2 pre : wf_telem e s1 s2 = true -> all_wsb pre = true ->
  parse_elem (te_name e) (pre ++ join [32] (te_vals e ++ [te_type e; s1; s2])) = Some e.
Proof.
  unfold wf_telem, parse_elem. intros [[[[[Hn Hw]%andb_prop Hlen%Nat.eqb_eq]%andb_prop Hnum]%andb_prop Hty]%andb_prop Hz]%andb_prop Hp.
  rewrite (split_ws_line _ _ pre Hn Hw Hp). destruct e as [name vals ty z1 z2]; cbn [te_name te_vals te_type te_surf te_space] in *.
  destruct vals as [|a [|u [|w [|g1 [|g2 [|an [|ti [|x r]]]]]]]]; try discriminate Hlen. cbn [app]. rewrite Hnum, Hty. cbn [andb].
  destruct (parse_i32 s1) as [y1|]; [|discriminate]. destruct (parse_i32 s2) as [y2|]; [|discriminate].
  apply andb_prop in Hz as [->%Z.eqb_eq ->%Z.eqb_eq]. reflexivity.
Qed.

Definition wf_tspace (s : tspace) (si sm : str) : bool :=
  word_ok (ts_name s) && forallb word_ok [si; sm; ts_area s; ts_qint s] &&
  is_number (ts_area s) && is_number (ts_qint s) &&
  match parse_i32 si, parse_i32 sm with Some zi, Some zm => Z.eqb zi (ts_id s) && Z.eqb zm (ts_mult s) | _, _ => false end.

(* the counts line decides how many (name, values) pairs are elements; the rest are spaces *)
Lemma read_elems_one e s1 s2 pre rest : wf_telem e s1 s2 = true -> all_wsb pre = true ->
  edges_ok (te_name e) = true -> quote_free_edges (te_name e) = true ->
  read_elems ((quote :: te_name e ++ [quote]) :: (pre ++ join [32] (te_vals e ++ [te_type e; s1; s2])) :: rest) 1 0 = Ok2 [e] rest.
Proof.
  intros Hwf Hp He Hq. cbn [read_elems].
  rewrite (trim_quote_wrap (te_name e) Hq), (trim_id _ He), (elem_roundtrip e s1 s2 pre Hwf Hp). reflexivity.
Qed.
