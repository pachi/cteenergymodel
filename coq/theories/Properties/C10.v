(* C10 — q_sol;jul follows the DB-HE solar-control formula (Model/QSolJul.v).
   The tables are the regenerated coq/gen/Tables.v (dumped from /repo on every run). *)
From Coq Require Import NArith QArith Bool List Lqa.
From CTE Require Import Base.Num Model.BModel Model.Props Model.QSolJul Proofs.NumP Proofs.KP Proofs.QSolP.
Import ListNotations.
Local Open Scope Q_scope.

Theorem C10_formula : forall aref l,
  qs_Q (QSol_of_items aref l) = qsum (map (fun i => si_fsh i * si_g i * (1 - si_ff i) * si_area i * si_rad i) l) /\
  (~ aref == 0 -> qs_q (QSol_of_items aref l) * aref == qs_Q (QSol_of_items aref l)).
Proof. intros aref l. split; [reflexivity | apply qdiv0_mult]. Qed.

(* what each window contributes: override > computed > 1, area with multiplier, tabulated H for the
   window's orientation class and the zone, defaults 0.77 / 0.20 without construction *)
Theorem C10_item_spec : forall zone p w i,
  sol_item zone p w = Some i ->
  si_fsh i = match np_fshov (snd w), np_fsh (snd w) with Some x, _ => x | None, Some y => y | None, None => 1 end /\
  si_area i = np_area (snd w) * np_mult (snd w) /\
  july_total zone (np_orient (snd w)) = Some (si_rad i) /\
  (si_g i, si_ff i) = match lookup (np_cons (snd w)) (ep_wincons p) with
                      | Some c => (cp_gglshwi c, cp_ff c) | None => (77 # 100, 1 # 5) end.
Proof.
  intros zone p w i. unfold sol_item. destruct (july_total zone (np_orient (snd w))) as [rad|]; intros [= <-].
  cbn [si_fsh si_area si_rad si_g si_ff]. repeat split.
  - destruct (np_fshov (snd w)), (np_fsh (snd w)); reflexivity.
  - destruct (lookup (np_cons (snd w)) (ep_wincons p)); reflexivity.
Qed.

Theorem C10_window_set : forall w, sol_win w = true <->
  np_tenv (snd w) = true /\ (np_bounds (snd w) = EXTERIOR \/ np_bounds (snd w) = GROUND).
Proof. intros w. unfold sol_win. rewrite andb_true_iff, is_ext_or_gnd_spec. reflexivity. Qed.

Theorem C10_detail_sums_to_total : forall aref l,
  let d := QSol_of_items aref l in
  qs_Q d == qsum (map (fun od => qd_gains (snd od)) (qs_detail d)) /\
  qs_awp d == qsum (map (fun od => qd_a (snd od)) (qs_detail d)).
Proof. intros aref l. split; [apply (detail_sum qd_gains si_gain) | apply (detail_sum qd_a si_area)]; reflexivity. Qed.

Theorem C10_mean_is_weighted : forall f l,
  ~ area_sum l == 0 -> qdiv0 (wsum f l) (area_sum l) * area_sum l == wsum f l.
Proof. intros f l. apply qdiv0_mult. Qed.
Theorem C10_mean_between : forall f l lo hi,
  (forall i, In i l -> 0 <= si_area i) -> 0 < area_sum l ->
  (forall i, In i l -> lo <= f i <= hi) -> lo <= qdiv0 (wsum f l) (area_sum l) <= hi.
Proof.
  intros f l lo hi Hpos Ha Hb. unfold qdiv0, wsum. destruct (qeqb_spec (area_sum l) 0); [lra|].
  rewrite (qsum_map_ext _ (fun i => si_area i * f i)) by (intros; apply Qmult_comm).
  apply weighted_mean_between; assumption.
Qed.

(* no envelope window: every reported figure is a defined number (0) *)
Theorem C10_no_window : forall zone p,
  solset p = [] -> exists d, QSol_model zone p = Some d /\ qs_Q d = 0 /\ qs_q d == 0 /\ qs_detail d = [].
Proof. exact no_window_model. Qed.

(* the embedded tables, as regenerated from /repo on this run: for every zone and orientation class
   there is exactly one entry, with 12 non-negative months; the July total exists and is >= 0 *)
Theorem C10_table_total : forall z o, In z zones32 -> exists h, july_total z o = Some h /\ 0 <= h.
Proof. exact table_total. Qed.
Theorem C10_table_shape : table_shape_ok = true.
Proof. exact table_shape_ok_true. Qed.
Theorem C10_defined : forall zone p, In zone zones32 -> exists d, QSol_model zone p = Some d.
Proof. exact qsol_defined. Qed.

(* non-vacuity: two south windows (one with F override 0.5, one without construction) and a skylight *)
Definition ex10 : eprops :=
  mkEProps (mkGlobalP 100 300 250 250 1 None 16) []
    [(20%N, mkWinP 3%N 10%N O_S SIDE 2 1 EXTERIOR true None None (Some (9#10)) (Some (1#2)));
     (21%N, mkWinP 4%N 10%N O_S SIDE 3 2 EXTERIOR true None None None None);
     (22%N, mkWinP 3%N 11%N O_HZ TOP 1 1 EXTERIOR true None None None None);
     (23%N, mkWinP 3%N 12%N O_N SIDE 5 1 INTERIOR true None None None None)]
    [] [(3%N, mkWinConsP (6#10) (5#10) None 27 (1#4))] [].
Example C10_example : exists d, QSol_model 30%N ex10 = Some d /\ length (qs_detail d) = 2%nat /\ 0 < qs_Q d.
Proof. eexists. split; [vm_compute; reflexivity|]. split; [reflexivity | vm_compute; reflexivity]. Qed.
