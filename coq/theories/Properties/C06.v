(* C06 — opaque U-values follow EN ISO 6946, 13370 and 13789: the rational part (Model/UValue.v) and the
   real-valued ground formulas (Model/UValueR.v). *)
(* Psatz: its lra and nra work over Q and over R *)
From Coq Require Import NArith QArith List Reals Psatz.
From CTE Require Import Model.BModel Model.Geometry Model.UValue Model.UValueR Proofs.NumP Proofs.UValueP.
From CTEGen Require Import Constants.
Import ListNotations.

Local Open Scope Q_scope.
(* air contact: 1 / (Rsi + sum of layer resistances + Rse), Rsi by heat-flow direction *)
Theorem C06_u_air_formula : forall r t,
  u_air r t == 1 / (r + match t with BOTTOM => 17 # 100 | TOP => 10 # 100 | SIDE => 13 # 100 end + (4 # 100)).
Proof. intros r []; reflexivity. Qed.
Theorem C06_air_contact_value : forall m p cd v w c r,
  get_wallcons (m_cons m) (w_cons w) = Some c -> resistance (m_cons m) c = Some r ->
  (w_bounds w = EXTERIOR \/ w_bounds w = ADIABATIC) -> u_model m p cd v w = URat (u_air r (wall_tilt w)).
Proof. intros m p cd v w c r Hc Hr Hb. unfold u_model. rewrite Hc, Hr. destruct Hb as [-> | ->]; reflexivity. Qed.

(* adding a layer or thickening one never increases the U-value *)
Theorem C06_u_air_antitone : forall r d t, 0 <= r -> 0 <= d -> u_air (r + d) t <= u_air r t.
Proof. intros r d t Hr Hd. apply u_air_le; lra. Qed.
Theorem C06_add_layer_le : forall db l ls r r' t,
  layers_r db ls = Some r -> layers_r db (l :: ls) = Some r' -> 0 <= r ->
  (forall x, layer_r db l = Some x -> 0 <= x) -> u_air r' t <= u_air r t.
Proof.
  intros db l ls r r' t H1 H2 Hr Hx. cbn [layers_r] in H2. rewrite H1 in H2.
  destruct (layer_r db l) as [x|]; [|discriminate]. injection H2 as <-.
  specialize (Hx x eq_refl). apply u_air_le; lra.
Qed.
Theorem C06_thicken_layer_le : forall db m e e' x x',
  layer_r db (mkLayer m e) = Some x -> layer_r db (mkLayer m e') = Some x' -> e <= e' -> x <= x'.
Proof.
  intros db m e e' x x'. unfold layer_r. cbn [l_mat l_e]. destruct (get_material db m) as [mt|]; [|discriminate].
  destruct (m_props mt) as [k d c v|rr v].
  - destruct (qltb_spec 0 k); [|discriminate]. intros [= <-] [= <-] He.
    apply Qdiv_le_compat_r; [lra | exact He].
  - intros [= <-] [= <-] _. lra.
Qed.

(* partitions between a conditioned and an unconditioned space: 1 / (Rf + Ai / (sum Ae Ue + 0.33 n V)) *)
Theorem C06_partition_formula : forall a_i r_f ua q, ~ ua + (33 # 100) * q == 0 ->
  u_partition a_i r_f ua q == 1 / (r_f + a_i / (ua + (33 # 100) * q)).
Proof. intros a_i r_f ua q H%qeqb_neq. unfold u_partition, VENT_COEF. rewrite H. reflexivity. Qed.
Theorem C06_partition_le_uf : forall a_i r_f ua q,
  0 < r_f -> 0 <= a_i -> 0 <= ua + VENT_COEF * q -> u_partition a_i r_f ua q <= 1 / r_f.
Proof.
  intros a_i r_f ua q Hr Ha Hh. unfold u_partition. destruct (qeqb_spec (ua + VENT_COEF * q) 0).
  - apply Qle_shift_div_l; lra.
  - assert (0 <= a_i / (ua + VENT_COEF * q)) by (apply Qle_shift_div_l; lra). apply inv_antitone; lra.
Qed.
Theorem C06_partition_antitone : forall a_i r_f r_f' ua q,
  0 < r_f -> r_f <= r_f' -> 0 <= a_i -> 0 <= ua + VENT_COEF * q ->
  u_partition a_i r_f' ua q <= u_partition a_i r_f ua q.
Proof.
  intros a_i r_f r_f' ua q Hr Hle Ha Hh. unfold u_partition. destruct (qeqb_spec (ua + VENT_COEF * q) 0); [lra|].
  assert (0 <= a_i / (ua + VENT_COEF * q)) by (apply Qle_shift_div_l; lra). apply inv_antitone; lra.
Qed.
Theorem C06_flow_direction :
  rf_dir true false BOTTOM = RSI_DOWN /\ rf_dir false true TOP = RSI_DOWN /\
  rf_dir true false TOP = RSI_UP /\ rf_dir false true BOTTOM = RSI_UP /\
  (forall a b, rf_dir a b SIDE = RSI_HORIZ) /\ (forall t, rf_dir true true t = RSI_HORIZ) /\
  (forall t, rf_dir false false t = RSI_HORIZ).
Proof. repeat split; try intros [] []; try intros []; reflexivity. Qed.

(* an element whose construction or material is missing has no U-value *)
Theorem C06_missing_cons_none : forall m p cd v w, get_wallcons (m_cons m) (w_cons w) = None -> u_model m p cd v w = UNone.
Proof. intros m p cd v w H. unfold u_model. rewrite H. reflexivity. Qed.
Theorem C06_missing_material_none : forall m p cd v w c,
  get_wallcons (m_cons m) (w_cons w) = Some c -> resistance (m_cons m) c = None -> u_model m p cd v w = UNone.
Proof.
  intros m p cd v w c Hc Hr. unfold u_model. rewrite Hc, Hr.
  destruct (w_bounds w); try reflexivity.
  destruct (get_space m (w_space w)); [|reflexivity].
  destruct (w_next w) as [u|]; [|reflexivity]. destruct (get_space m u); reflexivity.
Qed.

(* the constants of the code, regenerated from /repo on this run, are those of the standards *)
Theorem C06_constants_match : qlist_eqb repo_u_constants spec_constants = true.
Proof. reflexivity. Qed.

Local Open Scope R_scope.
(* EN ISO 13370: perimeter insulation never increases U (psi <= 0) and vanishes without it; the
   basement-wall value lies between the buried part and the part above ground *)
Theorem C06_psi_nonpos : forall dd dt d1, 0 <= dd -> 0 < dt -> 0 <= d1 -> psi_ge dd dt d1 <= 0.
Proof.
  intros dd dt d1 Hd Ht H1. unfold psi_ge.
  assert (Hp : 0 <= dd / (dt + d1)) by (apply Rle_mult_inv_pos; lra).
  assert (Hq : dd / (dt + d1) <= dd / dt) by (apply Rmult_le_compat_l, Rinv_le_contravar; lra).
  assert (Hl : ln (1 + dd / (dt + d1)) <= ln (1 + dd / dt)).
  { destruct Hq as [Hq| ->]; [left; apply ln_increasing|]; lra. }
  pose proof (Rinv_0_lt_compat PI PI_RGT_0). unfold Rdiv at 1. nra.
Qed.
Theorem C06_psi_zero_d : forall dt d1, psi_ge 0 dt d1 = 0.
Proof. intros dt d1. unfold psi_ge. unfold Rdiv at 2 3. rewrite !Rmult_0_l, !Rplus_0_r, ln_1. ring. Qed.
Theorem C06_psi_zero_d1 : forall dd dt, psi_ge dd dt 0 = 0.
Proof. intros dd dt. unfold psi_ge. rewrite Rplus_0_r. ring. Qed.
Theorem C06_bwall_between : forall z dw dtm h hnet uw,
  0 < z -> 0 <= h -> hnet = z + h ->
  Rmin (ubw z dw dtm) uw <= bwall_u z dw dtm h hnet uw <= Rmax (ubw z dw dtm) uw.
Proof.
  intros z dw dtm h hnet uw Hz Hh ->. unfold bwall_u. set (a := ubw z dw dtm).
  pose proof (Rmin_l a uw). pose proof (Rmin_r a uw). pose proof (Rmax_l a uw). pose proof (Rmax_r a uw).
  split; apply Rmult_le_reg_r with (z + h); try lra; unfold Rdiv; rewrite Rmult_assoc, Rinv_l by lra; nra.
Qed.

(* non-vacuity: 24 cm of brick (lambda 0.8) on a vertical outside wall: U = 1/(0.3 + 0.13 + 0.04) *)
Local Open Scope Q_scope.
Definition exdb06 := mkConsDb [mkWallCons 1%N [mkLayer 2%N (24 # 100)] (6#10)] [] [mkMaterial 2%N (Detailed (8#10) 1800 1000 None)] [] [].
Example C06_example :
  match get_wallcons exdb06 1%N with Some c =>
    match resistance exdb06 c with Some r => Qred (u_air r SIDE) = 100 # 47 | None => False end | None => False end.
Proof. reflexivity. Qed.
