(* C19 — damaged project files are rejected with an error, never with a crash or hang (partial: a
   crash is a run-time fact of the implementation; the theorems are about the block parser model,
   Model/Bdl.v, and about the regenerated inventory of partial operations, Model/Sites19.v; the damaged
   files themselves are run).  The printed layouts (pline, render, contents) are in Proofs/BdlP.v. *)
From Coq Require Import NArith List String.
From CTE Require Import Model.Bdl Model.Sites19 Proofs.ListP Proofs.BdlP.
Import ListNotations.

(* edits that only touch the layout (re-indenting, blank and comment lines) never change what is parsed *)
Theorem C19_layout_edit_invisible : forall pls pls',
  pls <> [] -> pls' <> [] -> forallb wf_pline pls = true -> forallb wf_pline pls' = true ->
  forallb not_removed (render pls) = true -> forallb not_removed (render pls') = true ->
  contents pls = contents pls' -> build_blocks (render pls) = build_blocks (render pls').
Proof. intros pls pls' _ _. apply layout_edit_invisible. Qed.

(* deleting a blank / comment / LIDER header line *)
Theorem C19_delete_noise_line : forall a p b,
  (match p with PContent _ _ _ => False | _ => True end) ->
  a ++ b <> [] -> forallb wf_pline (a ++ p :: b) = true ->
  forallb not_removed (render (a ++ p :: b)) = true -> forallb not_removed (render (a ++ b)) = true ->
  build_blocks (render (a ++ p :: b)) = build_blocks (render (a ++ b)).
Proof.
  intros a p b Hp _ Hwf R1 R2. apply layout_edit_invisible; try assumption; [|apply contents_noise, Hp].
  revert Hwf. apply forallb_incl, incl_app_app; [apply incl_refl | apply incl_tl, incl_refl].
Qed.

(* duplicating one *)
Theorem C19_duplicate_noise_line : forall a p b,
  (match p with PContent _ _ _ => False | _ => True end) ->
  forallb wf_pline (a ++ p :: b) = true ->
  forallb not_removed (render (a ++ p :: b)) = true -> forallb not_removed (render (a ++ p :: p :: b)) = true ->
  build_blocks (render (a ++ p :: p :: b)) = build_blocks (render (a ++ p :: b)).
Proof.
  intros a p b Hp Hwf R1 R2. apply layout_edit_invisible; try assumption; [|apply contents_noise, Hp].
  revert Hwf. apply forallb_incl, incl_app_app; [apply incl_refl | apply incl_cons; [apply in_eq | apply incl_refl]].
Qed.

(* obligation on the regenerated inventory of partial operations (coq/gen/PartialOps.v, group c19) *)
Theorem C19_sites_accounted : sites19_accounted = true.
Proof. vm_compute. reflexivity. Qed.

Local Open Scope string_scope.
(* non-vacuity: the inventory is not empty and the model rejects a block without a known type *)
Example C19_example :
  (0 <? N.of_nat (List.length CTEGen.PartialOps.c19_partial_ops))%N = true /\
  (exists e, build_blocks (s2l "A = NOSUCHTYPE
 X = 1
 ..") = Err e).
Proof. split; [vm_compute; reflexivity | eexists; vm_compute; reflexivity]. Qed.
