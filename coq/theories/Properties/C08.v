(* C08 — K is the area-weighted mean transmittance of the thermal envelope.
   The model K_model (Model/K.v) takes the implementation's reported props; its inputs are tied to the Model by
   C06 (U), C07 (window U), C11 (envelope). *)
From Coq Require Import NArith QArith List Permutation Lqa.
From CTE Require Import Base.Num Model.BModel Model.Props Model.K Proofs.ListP Proofs.NumP Proofs.KP.
Import ListNotations.
Local Open Scope Q_scope.

(* K * (sum of A) = sum of A*U over opaque parts and windows of the envelope set + sum of psi*L over
   bridges of non-negative length *)
Theorem C08_K_formula : forall p, (1 # 100) <= total_a p -> kd_K (K_model p) * total_a p == total_au p.
Proof.
  intros p H. rewrite K_value. destruct (qltb_spec (total_a p) (1 # 100)); [lra | field; lra].
Qed.
Theorem C08_K_small_area : forall p, total_a p < (1 # 100) -> kd_K (K_model p) = 0.
Proof. intros p H%qltb_lt. rewrite K_value, H. reflexivity. Qed.

(* user override first, then the computed value, then 5.7 W/m2K *)
Theorem C08_override_first : forall x u, ustar (Some x) u = x.
Proof. reflexivity. Qed.
Theorem C08_computed_next : forall y, ustar None (Some y) = y.
Proof. reflexivity. Qed.
Theorem C08_default_last : ustar None None = 57 # 10.
Proof. reflexivity. Qed.

(* the breakdown adds up to the totals *)
Theorem C08_breakdown_sums : forall p,
  let k := K_model p in
  kd_a k == ke_a (kd_walls k) + ke_a (kd_roofs k) + ke_a (kd_floors k) + ke_a (kd_ground k) + ke_a (kd_windows k) /\
  kd_au k == ke_au (kd_walls k) + ke_au (kd_roofs k) + ke_au (kd_floors k) + ke_au (kd_ground k) +
             ke_au (kd_windows k) + qsum (map snd (kd_tbs k)) /\
  kd_opaques_a k == ke_a (kd_walls k) + ke_a (kd_roofs k) + ke_a (kd_floors k) + ke_a (kd_ground k) /\
  kd_windows_a k = ke_a (kd_windows k) /\ kd_windows_au k = ke_au (kd_windows k) /\
  kd_tbs_l k == qsum (map fst (kd_tbs k)) /\ kd_tbs_psil k == qsum (map snd (kd_tbs k)).
Proof.
  intros p. pose proof (opaque_by_cat fst p) as Ha. pose proof (opaque_by_cat (fun i => fst i * snd i) p) as Hau.
  pose proof (tbs_by_kind tp_l p) as Hl. pose proof (tbs_by_kind (fun t => tp_psi t * tp_l t) p) as Hp.
  cbv zeta. unfold K_model. cbn [kd_a kd_au kd_opaques_a kd_windows_a kd_windows_au kd_tbs_l kd_tbs_psil
    kd_walls kd_roofs kd_floors kd_ground kd_windows kd_tbs kel_of ke_a ke_au].
  rewrite !map_map. cbn [fst snd]. unfold items_a, items_au, tb_l_sum, tb_psil_sum.
  repeat split; try reflexivity; try assumption; lra.
Qed.

(* each category mean lies between its minimum and maximum (non-negative areas) *)
Theorem C08_mean_between : forall (l : list item) umin umax umean,
  (forall i, In i l -> 0 <= fst i) ->
  ke_umin (kel_of l) = Some umin -> ke_umax (kel_of l) = Some umax -> ke_umean (kel_of l) = Some umean ->
  umin <= umean <= umax.
Proof.
  intros l umin umax umean Hpos Hmin Hmax. unfold kel_of in *. cbn [ke_umin ke_umax ke_umean] in *.
  destruct (qltb_spec (1 # 1000) (items_a l)) as [Ha|]; intros [= <-].
  apply (weighted_mean_between fst snd); [exact Hpos | unfold items_a in Ha; lra |].
  intros i Hi%(in_map snd). split; [apply (qmin_list_lb _ _ _ Hmin), Hi | apply (qmax_list_ub _ _ _ Hmax), Hi].
Qed.

(* exactly the envelope set counts: any other element can be dropped *)
Theorem C08_excludes : forall p ws1 w ws2,
  ep_walls p = ws1 ++ w :: ws2 -> env_wall w = false -> K_model (with_walls p (ws1 ++ ws2)) = K_model p.
Proof.
  intros p ws1 w ws2 Hw He. apply K_model_envset. unfold envset. rewrite Hw. symmetry. apply filter_app_mid, He.
Qed.
Theorem C08_negative_bridge_ignored : forall p ts1 t ts2,
  ep_tbs p = ts1 ++ t :: ts2 -> tp_l (snd t) < 0 -> K_model (with_tbs p (ts1 ++ ts2)) = K_model p.
Proof.
  intros p ts1 t ts2 Ht Hneg%qltb_lt. apply K_model_nonneg. unfold tbs_nonneg. rewrite Ht, !map_app. symmetry.
  apply filter_app_mid. rewrite Hneg. reflexivity.
Qed.

(* reordering the elements leaves K and the eight other scalars of the summary as they are, up to == (the sums are
   kept reduced in the order of the elements; the per-category minima and maxima are not covered); renaming them
   leaves everything *)
Theorem C08_permutation : forall p p',
  ep_global p = ep_global p' -> ep_wincons p = ep_wincons p' ->
  Permutation (ep_walls p) (ep_walls p') -> Permutation (ep_windows p) (ep_windows p') ->
  Permutation (ep_tbs p) (ep_tbs p') ->
  qlist_eq (K_scalars (K_model p)) (K_scalars (K_model p')).
Proof.
  intros p p' _ _ Hw Hn Ht.
  assert (Henv : Permutation (envset p) (envset p')) by apply perm_filter, Hw.
  assert (Hoi : Permutation (opaque_items p) (opaque_items p')) by apply Permutation_map, Henv.
  assert (Hwi : Permutation (window_items p) (window_items p')).
  { apply perm_flat_map; [exact Henv|]. intros w _. apply Permutation_map, perm_filter, Hn. }
  assert (Htb : Permutation (tbs_nonneg p) (tbs_nonneg p')) by apply perm_filter, Permutation_map, Ht.
  rewrite !K_scalars_of_sums. apply scalars_of_sums_eq; apply qsum_perm, Permutation_map; assumption.
Qed.
Theorem C08_rename : forall f p, (forall a b, f a = f b -> a = b) -> K_model (rename_props f p) = K_model p.
Proof.
  intros f p Hinj.
  assert (Heqb : forall a b, N.eqb (f a) (f b) = N.eqb a b).
  { intros a b. destruct (N.eqb_spec a b) as [->|Hn]; [apply N.eqb_refl|].
    apply N.eqb_neq. intros H. apply Hn, Hinj, H. }
  assert (Henv : envset (rename_props f p) = map (fun w => (f (fst w), snd w)) (envset p)).
  { apply filter_map_comm. reflexivity. }
  assert (Hwi : window_items (rename_props f p) = window_items p).
  { unfold window_items. rewrite Henv, flat_map_concat_map, map_map, <- flat_map_concat_map.
    apply flat_map_ext. intros w. cbn [fst snd]. unfold wins_of, rename_props. cbn [ep_windows].
    erewrite filter_map_comm; [rewrite map_map; reflexivity|]. intros x. cbn [snd np_wall]. apply Heqb. }
  assert (Hoi : opaque_items (rename_props f p) = opaque_items p).
  { unfold opaque_items. rewrite Henv, map_map. reflexivity. }
  assert (Hci : forall c, cat_items c (rename_props f p) = cat_items c p).
  { intros c. unfold cat_items. rewrite Henv.
    erewrite filter_map_comm; [rewrite map_map; reflexivity | reflexivity]. }
  assert (Htb : map snd (ep_tbs (rename_props f p)) = map snd (ep_tbs p)) by (cbn [rename_props ep_tbs]; rewrite map_map; reflexivity).
  unfold K_model, tbs_nonneg, tbs_of. rewrite Hwi, Hoi, !Hci, Htb. reflexivity.
Qed.

(* non-vacuity: one envelope wall (10 m2 net, U 0.5), one window on it (2 m2, no U -> 5.7), an interior
   wall that must not count, one bridge of 4 m and one negative *)
Definition ex_wall b tenv := mkWallP 1%N None b 2%N O_S SIDE 12 10 1 tenv (Some (1#2)) None.
Definition ex08 : eprops :=
  mkEProps (mkGlobalP 50 150 130 130 1 None 16)
    [(10%N, ex_wall EXTERIOR true); (11%N, ex_wall INTERIOR true)]
    [(20%N, mkWinP 3%N 10%N O_S SIDE 2 1 EXTERIOR true None None None None)]
    [(30%N, mkTbP TB_CORNER 4 (1#10)); (31%N, mkTbP TB_ROOF (-3) 1)] [] [].
Example C08_example : Qred (kd_K (K_model ex08)) = (7 # 5) /\ (1 # 100) <= total_a ex08.
Proof. split; [reflexivity | vm_compute; discriminate]. Qed.
