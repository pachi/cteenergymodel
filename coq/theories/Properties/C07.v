(* C07 — window U-value and solar factors follow their definitions (Model/WinCons.v);
   the downstream defaults 5.7 W/m2K (K) and 0.77 / 0.20 (q_sol;jul) are C08_default_last and C10_item_spec. *)
From Coq Require Import NArith QArith List Lqa.
From CTE Require Import Base.Num Model.BModel Model.WinCons Proofs.NumP.
Import ListNotations.
Local Open Scope Q_scope.

Theorem C07_u_win_spec : forall db wc g f,
  get_glass db (wnc_glass wc) = Some g -> get_frame db (wnc_frame wc) = Some f ->
  u_win db wc = Some ((1 + wnc_du wc / 100) * (fr_u f * wnc_ff wc + gl_u g * (1 - wnc_ff wc))).
Proof. intros db wc g f Hg Hf. unfold u_win. rewrite Hg, Hf. reflexivity. Qed.

Theorem C07_u_win_between : forall du ff uf ug,
  0 <= ff <= 1 -> 0 <= du ->
  (1 + du / 100) * qmin ug uf <= u_win_formula du ff uf ug <= (1 + du / 100) * qmax ug uf.
Proof.
  intros du ff uf ug [Hf0 Hf1] Hdu. unfold u_win_formula.
  assert (0 <= du / 100) by (apply Qle_shift_div_l; lra).
  pose proof (qmin_lb_l ug uf). pose proof (qmin_lb_r ug uf). pose proof (qmax_ub_l ug uf). pose proof (qmax_ub_r ug uf).
  split; apply Qmult_le_l; try lra; nra.
Qed.
Theorem C07_u_win_ff0 : forall du uf ug, u_win_formula du 0 uf ug == (1 + du / 100) * ug.
Proof. intros du uf ug. unfold u_win_formula. ring. Qed.
Theorem C07_u_win_ff1 : forall du uf ug, u_win_formula du 1 uf ug == (1 + du / 100) * uf.
Proof. intros du uf ug. unfold u_win_formula. ring. Qed.
Theorem C07_u_win_monotone_du : forall du du' ff uf ug,
  0 <= ff <= 1 -> 0 <= uf -> 0 <= ug -> du <= du' -> u_win_formula du ff uf ug <= u_win_formula du' ff uf ug.
Proof.
  intros du du' ff uf ug [Hf0 Hf1] Huf Hug Hd. unfold u_win_formula.
  assert (0 <= uf * ff + ug * (1 - ff)) by nra.
  assert (du / 100 <= du' / 100) by (apply Qdiv_le_compat_r; [lra | exact Hd]).
  nra.
Qed.

Theorem C07_missing_glass_none : forall db wc,
  get_glass db (wnc_glass wc) = None -> u_win db wc = None /\ g_glwi db wc = None.
Proof. intros db wc H. unfold u_win, g_glwi. rewrite H. split; reflexivity. Qed.
Theorem C07_missing_frame_none : forall db wc, get_frame db (wnc_frame wc) = None -> u_win db wc = None.
Proof. intros db wc H. unfold u_win. rewrite H. destruct (get_glass db (wnc_glass wc)); reflexivity. Qed.

Theorem C07_g_glwi : forall db wc g, get_glass db (wnc_glass wc) = Some g -> g_glwi db wc = Some ((9 # 10) * gl_g g).
Proof. intros db wc g H. unfold g_glwi. rewrite H. reflexivity. Qed.
Theorem C07_g_user_first : forall db wc x, wnc_gglshwi wc = Some x -> g_glshwi db wc = Some x.
Proof. intros db wc x H. unfold g_glshwi. rewrite H. reflexivity. Qed.
Theorem C07_g_unshaded_otherwise : forall db wc, wnc_gglshwi wc = None -> g_glshwi db wc = g_glwi db wc.
Proof. intros db wc H. unfold g_glshwi. rewrite H. reflexivity. Qed.
Theorem C07_props_defaults : forall db wc,
  get_glass db (wnc_glass wc) = None ->
  props_g_glwi db wc = 77 # 100 /\
  props_g_glshwi db wc = match wnc_gglshwi wc with Some x => x | None => 77 # 100 end.
Proof.
  intros db wc H. unfold props_g_glshwi, props_g_glwi, g_glshwi, g_glwi. rewrite H.
  split; [reflexivity|]. destruct (wnc_gglshwi wc); reflexivity.
Qed.

Definition exdb07 := mkConsDb [] [mkWinCons 1%N 2%N 3%N (1#4) 10 None 27] [] [mkGlass 2%N 2 (6#10)] [mkFrame 3%N 4 (1#2)].
Example C07_example :
  match c_wincons exdb07 with wc :: _ =>
    (match u_win exdb07 wc with Some u => Qred u = 11 # 4 | None => False end) /\
    (match g_glshwi exdb07 wc with Some g => Qred g = 27 # 50 | None => False end)
  | [] => False end.
Proof. split; reflexivity. Qed.
