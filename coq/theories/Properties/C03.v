(* C03 — conversion preserves the building's geometry and orientation conventions.
   The theorems are about Model/Conv3.v (where the converted model must put every element).
   Angles enter the model as (cos, sin) pairs: the theorems are algebraic identities valid for every
   pair (and every angle when cos^2 + sin^2 = 1);
   that a pair is the cosine and sine of the written angle is exact for the angles the generator
   uses and certified by interval arithmetic per case otherwise (Model/Conv3Cert.v). *)
From Coq Require Import QArith List Lqa.
From CTE Require Import Model.Aabb Model.Conv3 Proofs.Conv3P.
Import ListNotations.
Local Open Scope Q_scope.

(* turning the whole building by a further angle turns every position by that angle *)
Theorem C03_turn_building : forall dev e s q, veq (to_global (compose dev e) s q) (rotz (cw e) (to_global dev s q)).
Proof. intros dev e s q. apply rotz_cw_compose. Qed.

(* ... and leaves every outline area unchanged (turns and shifts) *)
Theorem C03_area_turn_invariant : forall r l, fst r * fst r + snd r * snd r == 1 ->
  signed_area2 (map (rot2 r) l) == signed_area2 l.
Proof. intros r [|p l] H; [reflexivity|]. cbn [map signed_area2]. rewrite shoelace2_rot, H. lra. Qed.
Theorem C03_area_shift_invariant : forall d l, signed_area2 (map (shift2 d) l) == signed_area2 l.
Proof. intros d [|p l]; [reflexivity|]. cbn [map signed_area2]. rewrite shoelace2_shift. lra. Qed.

(* the rectangle of a converted wall (position + Rz(azimuth) Rx(90) (x, y, 0)) spans exactly its edge over
   the storey height whenever the model azimuth is the direction of the turned edge *)
Theorem C03_wall_spans_edge : forall dev s n off az w,
  let P := edge_wall_corners dev s n off in
  let P1 := nth 0 P (mkV 0 0 0) in let P2 := nth 1 P (mkV 0 0 0) in
  vx P2 - vx P1 == w * fst az -> vy P2 - vy P1 == w * snd az ->
  veq (wall_point P1 az 0 0) P1 /\ veq (wall_point P1 az w 0) P2 /\
  veq (wall_point P1 az w (ss_height s)) (nth 2 P (mkV 0 0 0)) /\ veq (wall_point P1 az 0 (ss_height s)) (nth 3 P (mkV 0 0 0)).
Proof.
  intros dev s n off az w P P1 P2 Hx Hy. apply (wall_rect P1 P2 _ _ az w (ss_height s) Hx Hy).
  - reflexivity.            (* both ends of the edge are converted at height 0 *)
  - apply to_global_lift.   (* the upper corners are the lower ones raised by the storey height *)
  - apply to_global_lift.
Qed.

(* and its normal is the edge turned by -90 degrees: away from a counter-clockwise outline *)
Theorem C03_wall_normal_outward : forall az w ex ey, ex == w * fst az -> ey == w * snd az ->
  veq (vscale w (wall_normal az)) (mkV ey (- ex) 0).
Proof.
  intros az w ex ey Hx Hy. unfold veq, vscale, wall_normal, rotz. cbn [vx vy vz]. rewrite Hx, Hy. repeat split; lra.
Qed.

Theorem C03_rect_shade_turns : forall dev e az tilt origin w h,
  Forall2 veq (rect_shade_corners (compose dev e) az tilt origin w h)
              (map (rotz (cw e)) (rect_shade_corners dev az tilt origin w h)).
Proof.
  intros dev e az tilt origin w h. unfold rect_shade_corners. cbn [map].
  (* every corner is the turned origin plus a local point q turned to the shade's azimuth: both turn by e *)
  assert (T : forall q, veq (rotz (south_ccw (compose az (compose dev e))) q) (rotz (cw e) (rotz (south_ccw (compose az dev)) q))).
  { intros q. unfold veq, rotz, south_ccw, compose, cw. cbn [fst snd vx vy vz]. repeat split; lra. }
  repeat (constructor; [apply rotz_vadd; [apply rotz_cw_compose | apply T]|]). constructor.
Qed.

Theorem C03_poly_wall_turns : forall dev e s az tilt w poly,
  Forall2 veq (poly_wall_corners (compose dev e) s az tilt w poly)
              (map (rotz (cw e)) (poly_wall_corners dev s az tilt w poly)).
Proof.
  intros dev e s az tilt w poly. unfold poly_wall_corners. rewrite map_map.
  induction poly as [|p r IH]; cbn [map]; constructor; [apply rotz_cw_compose | exact IH].
Qed.

Theorem C03_turns_compose : forall a b p, veq (rotz a (rotz b p)) (rotz (compose a b) p).
Proof. intros a b p. unfold veq, rotz, compose. cbn [fst snd vx vy vz]. repeat split; lra. Qed.

(* non-vacuity: a 10 x 10 space at (10, 5) in a building turned by the 3-4-5 angle; its second wall *)
Definition ex_space := mkSS (mkV 10 5 0) (1, 0) 3 [(0, 0); (10, 0); (10, 10); (0, 10)].
Example C03_example :
  edge_wall_corners (4 # 5, 3 # 5) ex_space 1 (mkV 0 0 0) =
  [mkV (Qred (20 * (4#5) + 5 * (3#5))) (Qred (- (20 * (3#5)) + 5 * (4#5))) 0;
   mkV (Qred (20 * (4#5) + 15 * (3#5))) (Qred (- (20 * (3#5)) + 15 * (4#5))) 0;
   mkV (Qred (20 * (4#5) + 15 * (3#5))) (Qred (- (20 * (3#5)) + 15 * (4#5))) 3;
   mkV (Qred (20 * (4#5) + 5 * (3#5))) (Qred (- (20 * (3#5)) + 5 * (4#5))) 3] -> True.
Proof. intros _. exact I. Qed.
Example C03_example_agree :
  agree_C03 (EdgeWall (4 # 5, 3 # 5) ex_space 1 (mkV 0 0 0)
               [mkV 19 (-8) 0; mkV 25 0 0; mkV 25 0 3; mkV 19 (-8) 3] (mkV (4 # 5) (- (3 # 5)) 0)) = 0%N.
Proof. vm_compute. reflexivity. Qed.
