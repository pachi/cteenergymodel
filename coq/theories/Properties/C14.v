(* C14 — indicator computation is total (partial: crashes and hangs are run-time facts observed by
   fault enumeration; the theorems cover the logic that can make the computation fail: the inventory of partial
   operations (Model/Sites.v), the table lookups (Model/QSolJul.v), schedule expansion (Model/Schedules.v) and the
   BVH split (Model/Bvh.v)). *)
From Coq Require Import NArith QArith List Arith.
From CTE Require Import Model.BModel Model.Schedules Model.QSolJul Model.Sites Model.Bvh Model.Total Proofs.QSolP Proofs.SchedulesP Proofs.BvhP Proofs.TotalP.
From CTEGen Require Import Tables PartialOps.
Import ListNotations.

(* every partial operation (unwrap, expect, panic!, assert!, indexing) in the non-test code of the
   anchored files, regenerated from /repo on this run, is a known one with a recorded reason *)
Theorem C14_sites_covered : covered c14_known c14_partial_ops = true.
Proof. vm_compute. reflexivity. Qed.

(* the table lookups of the pipeline cannot fail: every zone has metadata and a non-empty July design day
   (the sweep tables_ok also checks days < 31, within the day < 32 that nday_from_md asserts; the statement does not carry it), and, next,
   a July total for every orientation class *)
Theorem C14_tables_complete : forall z, In z zones32 ->
  (exists m, In (z, m) zmeta) /\ (exists rows, In (z, rows) july /\ rows <> []).
Proof.
  (* tables_ok_true through a function of domain [tables_ok = true], for the reason given at QSolP.table_total *)
  intros z Hz. refine ((_ : tables_ok = true -> _) tables_ok_true).
  unfold tables_ok. rewrite forallb_forall. intros H. destruct (andb_prop _ _ (H z Hz)) as [Hm Hj]. split.
  - apply existsb_exists in Hm as [[z' m] [Hin He%N.eqb_eq]]. cbn in He. subst z'. exists m. exact Hin.
  - destruct (find _ july) as [[z' rows]|] eqn:Ef; [|discriminate].
    apply find_some in Ef as [Hin He%N.eqb_eq]. cbn in He. subst z'. exists rows. split; [exact Hin|].
    intros ->. apply andb_prop in Hj as [Hn _]. discriminate Hn.
Qed.
Theorem C14_july_total_defined : forall z o, In z zones32 -> exists h, july_total z o = Some h /\ (0 <= h)%Q.
Proof. exact table_total. Qed.
Theorem C14_qsol_never_fails : forall zone p, In zone zones32 -> exists d, QSol_model zone p = Some d.
Proof. exact qsol_defined. Qed.

(* termination: schedule expansion is bounded by the period lengths; BVH construction with the
   code's split terminates for any obstacle list *)
Theorem C14_expand_bounded : forall db vals cur, (length (expand_from db vals cur) <= counts_sum vals)%nat.
Proof.
  intros db vals. induction vals as [|[wid c] r IH]; intros cur; [apply Nat.le_refl|].
  cbn [expand_from]. rewrite app_length. change (counts_sum ((wid, c) :: r)) with (N.to_nat c + counts_sum r)%nat.
  apply Nat.add_le_mono; [apply cyc_take_length_le | apply IH].
Qed.
Theorem C14_bvh_terminates : forall (T : Type) (p : list T -> T -> bool) maxn, (1 <= maxn)%nat -> progressive T (part_fb p) maxn.
Proof. exact @part_fb_progressive. Qed.

(* q_sol;jul: no division by a zero area (every reported figure is a defined number) *)
Theorem C14_qsol_no_window : forall zone p,
  solset p = [] -> exists d, QSol_model zone p = Some d /\ qs_Q d = 0%Q /\ (qs_q d == 0)%Q /\ qs_detail d = [].
Proof. exact no_window_model. Qed.

(* non-vacuity of "sane": the empty model is sane; a model with a dangling wall->space link is not *)
Definition empty_model : model :=
  mkModel (mkMeta true true 1 0%N None None 0 0) [] [] [] [] [] (mkConsDb [] [] [] [] []) (mkSchedDb [] [] []) [] [] [] [].
Example C14_example : saneb empty_model = true /\
  saneb (mkModel (mkMeta true true 1 0%N None None 0 0) [] [mkWall 7%N EXTERIOR 8%N 9%N None (mkWallGeom 90 0 None [])] [] [] []
           (mkConsDb [] [] [] [] []) (mkSchedDb [] [] []) [] [] [] []) = false.
Proof. split; reflexivity. Qed.
