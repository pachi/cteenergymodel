(* C01 — the export tool writes exactly the model JSON to standard output (partial: the theorems
   are about a model of the tools' control flow over what the library does, Model/Cli.v; that the
   library itself prints nothing is an obligation over the regenerated inventory of /repo's stdout
   statements, and the real processes are compared with the model by the correspondence). *)
From Coq Require Import NArith List.
From CTE Require Import Model.Cli Proofs.CliP.
Import ListNotations.

(* a convertible directory, a silent library: exit 0 and exactly the model on stdout *)
Theorem C01_cli_exact : forall w j, w_has_arg w = true -> w_noise w = [] -> w_lib w = LOk j ->
  hulc2model_cli w = mkRun 0 [j] None.
Proof. intros w j A N0 L. unfold hulc2model_cli. rewrite A, L, N0. reflexivity. Qed.

(* no project (or no argument): non-zero exit, nothing on stdout *)
Theorem C01_cli_failure : forall w, w_noise w = [] -> w_lib w <> LPanic -> (w_has_arg w = false \/ w_lib w = LErr) ->
  r_out (hulc2model_cli w) = [] /\ r_exit (hulc2model_cli w) <> 0%N.
Proof.
  intros w N0 _ H. unfold hulc2model_cli. destruct (w_has_arg w); cbn.
  - destruct H as [H|H]; [discriminate|]. rewrite H, N0. split; [reflexivity | discriminate].
  - split; [reflexivity | discriminate].
Qed.

(* stdout is exactly one document iff nothing the conversion reaches prints *)
Theorem C01_one_doc_iff_silent : forall w j, w_has_arg w = true -> w_lib w = LOk j ->
  (r_out (hulc2model_cli w) = [j] <-> w_noise w = []).
Proof.
  intros w j A L. unfold hulc2model_cli. rewrite A, L. cbn. split.
  - destruct (w_noise w) as [|x [|y r]]; cbn; [reflexivity | discriminate | discriminate].
  - intros ->. reflexivity.
Qed.

(* thor -o writes the same model *)
Theorem C01_thor_same_model : forall w j, w_has_arg w = true -> w_noise w = [] -> w_lib w = LOk j ->
  r_file (thor_o w) = Some j /\ r_out (hulc2model_cli w) = [j].
Proof.
  intros w j A N0 L. split; [apply (thor_file w j L)|]. rewrite (C01_cli_exact w j A N0 L). reflexivity.
Qed.

(* the correspondence oracle accepts the model's own runs (that it rejects a run with library noise:
   C01_example for one chunk, CliP.agree_cli_noise for any) *)
Theorem C01_oracle_accepts_model : forall lib, lib <> LPanic ->
  let r := hulc2model_cli (mkWorld lib [] true) in
  agree_C01 (Cli lib (r_exit r) (docs_of (r_out r) (model_of lib)) (match lib with LOk j => j | _ => 0%N end)) = 0%N.
Proof.
  intros lib NP. destruct lib as [j| |]; cbn; [|reflexivity|contradiction].
  rewrite !N.eqb_refl. reflexivity.
Qed.

(* obligations on the regenerated inventory of stdout statements (coq/gen/StdoutSites.v) *)
Theorem C01_library_silent : library_silent = true.
Proof. vm_compute. reflexivity. Qed.
Theorem C01_cli_prints_only_model : cli_prints_only_model = true.
Proof. vm_compute. reflexivity. Qed.

(* non-vacuity: one chunk of library noise and the oracle reports code 2 *)
Example C01_example : forall j,
  let r := hulc2model_cli (mkWorld (LOk j) [7%N] true) in
  agree_C01 (Cli (LOk j) (r_exit r) (docs_of (r_out r) (Some j)) j) = 2%N.
Proof. intros j. exact (agree_cli_noise j 7%N []). Qed.
