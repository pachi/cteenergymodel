(* C16 — purging removes exactly the unreachable items and changes no indicator. The theorems are about
   the structure (what is kept, order, idempotence, no new warning) of Model/Purge.v; that the indicators do
   not change is observed on the implementation, case by case, by the correspondence (c16_indicators_same).
   The reachability predicates are in Proofs/PurgeP.v. *)
From Coq Require Import QArith List.
From CTE Require Import Model.BModel Model.Checks Model.Purge Proofs.ChecksP Proofs.PurgeP.
Import ListNotations.

(* exactly the unreachable items are removed: membership after purge <-> declarative reachability.
   Each collection of `purge m` is, by computation, `keep id (used_... c) l` with l the original collection
   and c collections of `purge m` that come earlier: once reachability is restated as membership of the id in
   that used-id list (by the earlier theorems and the In_used_... lemmas) the claim is In_keep. *)
Theorem C16_spaces_exact : forall m s, In s (m_spaces (purge m)) <-> kept_space m s.
Proof. intros m s. unfold kept_space, space_reach. rewrite <- In_used_spaces. apply In_keep. Qed.
Theorem C16_bridges_exact : forall m t, In t (m_tbs (purge m)) <-> In t (m_tbs m) /\ tb_reach t.
Proof. intros m t. rewrite <- tb_kept_spec. apply filter_In. Qed.
Theorem C16_wallcons_exact : forall m c, In c (c_wallcons (m_cons (purge m))) <-> kept_wallcons m c.
Proof. intros m c. unfold kept_wallcons, wallcons_reach. rewrite <- In_used_wallcons. apply In_keep. Qed.
Theorem C16_wincons_exact : forall m c, In c (c_wincons (m_cons (purge m))) <-> kept_wincons m c.
Proof. intros m c. unfold kept_wincons, wincons_reach. rewrite <- In_used_wincons. apply In_keep. Qed.
Theorem C16_materials_exact : forall m x,
  In x (c_materials (m_cons (purge m))) <-> In x (c_materials (m_cons m)) /\ material_reach m x.
Proof.
  intros m x. unfold material_reach. setoid_rewrite <- C16_wallcons_exact.
  rewrite <- In_used_materials. apply In_keep.
Qed.
Theorem C16_glasses_exact : forall m x,
  In x (c_glasses (m_cons (purge m))) <-> In x (c_glasses (m_cons m)) /\ glass_reach m x.
Proof.
  intros m x. unfold glass_reach. setoid_rewrite <- C16_wincons_exact.
  rewrite <- In_used_glasses. apply In_keep.
Qed.
Theorem C16_frames_exact : forall m x,
  In x (c_frames (m_cons (purge m))) <-> In x (c_frames (m_cons m)) /\ frame_reach m x.
Proof.
  intros m x. unfold frame_reach. setoid_rewrite <- C16_wincons_exact.
  rewrite <- In_used_frames. apply In_keep.
Qed.
Theorem C16_loads_exact : forall m l, In l (m_loads (purge m)) <-> kept_loads m l.
Proof.
  intros m l. unfold kept_loads, loads_reach. setoid_rewrite <- C16_spaces_exact.
  rewrite <- In_used_loads. apply In_keep.
Qed.
Theorem C16_thermostats_exact : forall m t, In t (m_thermostats (purge m)) <-> kept_thermostat m t.
Proof.
  intros m t. unfold kept_thermostat, thermostat_reach. setoid_rewrite <- C16_spaces_exact.
  rewrite <- In_used_thermostats. apply In_keep.
Qed.
Theorem C16_year_exact : forall m y, In y (sch_year (m_sched (purge m))) <-> kept_year m y.
Proof.
  intros m y. unfold kept_year, year_reach. setoid_rewrite <- C16_loads_exact.
  setoid_rewrite <- C16_thermostats_exact. rewrite <- In_used_years. apply In_keep.
Qed.
Theorem C16_week_exact : forall m w, In w (sch_week (m_sched (purge m))) <-> kept_week m w.
Proof.
  intros m w. unfold kept_week, week_reach. setoid_rewrite <- C16_year_exact.
  rewrite <- In_used_sub. apply In_keep.
Qed.
Theorem C16_day_exact : forall m d,
  In d (sch_day (m_sched (purge m))) <-> In d (sch_day (m_sched m)) /\ day_reach m d.
Proof.
  intros m d. unfold day_reach. setoid_rewrite <- C16_week_exact.
  rewrite <- In_used_sub. apply In_keep.
Qed.

(* the relative order of what remains is kept, in every collection *)
Theorem C16_order : forall m,
  sublist (m_spaces (purge m)) (m_spaces m) /\ sublist (m_tbs (purge m)) (m_tbs m) /\
  sublist (c_wallcons (m_cons (purge m))) (c_wallcons (m_cons m)) /\
  sublist (c_wincons (m_cons (purge m))) (c_wincons (m_cons m)) /\
  sublist (c_materials (m_cons (purge m))) (c_materials (m_cons m)) /\
  sublist (c_glasses (m_cons (purge m))) (c_glasses (m_cons m)) /\
  sublist (c_frames (m_cons (purge m))) (c_frames (m_cons m)) /\
  sublist (m_loads (purge m)) (m_loads m) /\ sublist (m_thermostats (purge m)) (m_thermostats m) /\
  sublist (sch_year (m_sched (purge m))) (sch_year (m_sched m)) /\
  sublist (sch_week (m_sched (purge m))) (sch_week (m_sched m)) /\
  sublist (sch_day (m_sched (purge m))) (sch_day (m_sched m)).
Proof. intros m. repeat split; apply filter_sublist. Qed.

Theorem C16_untouched : forall m,
  m_walls (purge m) = m_walls m /\ m_windows (purge m) = m_windows m /\
  m_shades (purge m) = m_shades m /\ m_meta (purge m) = m_meta m /\
  m_ov_walls (purge m) = m_ov_walls m /\ m_ov_wins (purge m) = m_ov_wins m.
Proof. intros m. repeat split. Qed.

Theorem C16_idempotent : forall m, purge (purge m) = purge m.
Proof.
  (* every used-id list of the second purge is computed from a collection of the first; innermost first, keep_keep
     turns each of those back into the collection it was computed from *)
  intros m. unfold purge. cbn [m_meta m_spaces m_walls m_windows m_tbs m_shades m_cons m_sched m_loads
    m_thermostats m_ov_walls m_ov_wins c_wallcons c_wincons c_materials c_glasses c_frames
    sch_year sch_week sch_day].
  rewrite !keep_keep, filter_idem. reflexivity.
Qed.

(* no broken link is introduced: every warning after purge was there before *)
Theorem C16_no_new_warning : forall m, incl (check (purge m)) (check m).
Proof.
  intros m. rewrite purge_check.
  apply incl_app_app; [apply incl_refl | apply incl_app_app; [apply incl_refl|]].
  apply incl_flat_map, incl_filter.
Qed.
Theorem C16_closed : forall m, closed_basic m -> closed_basic (purge m).
Proof.
  intros m H%check_closed. apply check_closed, incl_l_nil. rewrite <- H. apply C16_no_new_warning.
Qed.

(* non-vacuity: an unused space with a private loads/year/week/day chain disappears with its chain *)
Definition ex_g := mkWallGeom 90 0 None [].
Definition ex16 : model :=
  mkModel (mkMeta true true 1 0%N None None 0 0)
    [mkSpace 1%N 1 CONDITIONED true 3 0 (Some 20%N) None None None;
     mkSpace 2%N 1 CONDITIONED true 3 0 (Some 21%N) None None None]
    [mkWall 7%N EXTERIOR 8%N 1%N None ex_g] [] [mkTb 3%N TB_GENERIC 0 0; mkTb 4%N TB_ROOF 2 0]
    [] (mkConsDb [mkWallCons 8%N [] 0; mkWallCons 9%N [] 0] [] [] [] [])
    (mkSchedDb [mkSched 30%N [(40%N, 365%N)]; mkSched 31%N [(41%N, 365%N)]]
               [mkSched 40%N [(50%N, 7%N)]; mkSched 41%N [(51%N, 7%N)]]
               [mkSchedDay 50%N []; mkSchedDay 51%N []])
    [mkLoads 20%N 1 (Some 30%N) 0 0 0 None 0 None; mkLoads 21%N 1 (Some 31%N) 0 0 0 None 0 None] [] [] [].
Example C16_example : snap (purge ex16) =
  mkSnap [1%N] [4%N] [8%N] [] [] [] [] [20%N] [] [30%N] [40%N] [50%N] [7%N] [] [].
Proof. reflexivity. Qed.
