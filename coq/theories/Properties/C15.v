(* C15 — the model checker reports exactly the broken links. The theorems are about Model/Checks.v; the
   declarative side (broken, closed_basic, expected_count) is in Proofs/ChecksP.v. *)
From Coq Require Import QArith List.
From CTE Require Import Model.BModel Model.Checks Proofs.ChecksP.
Import ListNotations.

(* a warning (x, k) is emitted exactly when element x has broken link k *)
Theorem C15_check_exact : forall m x k, In (x, k) (check m) <-> broken m x k.
Proof.
  intros m x k. unfold check. rewrite !in_app_iff, !in_flat_map. setoid_rewrite in_check_wall.
  setoid_rewrite in_check_win. setoid_rewrite in_check_tb. split.
  - intros [[w [Hw H]] | [[w [Hw H]] | [t [Ht H]]]].
    + destruct H as [[H [= -> ->]] | [[H [= -> ->]] | [n [Hn [H [= -> ->]]]]]]; econstructor; eassumption.
    + destruct H as [[H [= -> ->]] | [H [= -> ->]]]; econstructor; eassumption.
    + destruct H as [H [= -> ->]]. constructor; assumption.
  - intros [w Hw H|w Hw H|w n Hw Hn H|w Hw H|w Hw H|t Ht H].
    + left. exists w. auto.
    + left. exists w. auto.
    + left. exists w. split; [exact Hw|]. right. right. exists n. auto.
    + right. left. exists w. auto.
    + right. left. exists w. auto.
    + right. right. exists t. auto.
Qed.

(* one warning per broken link: the multiplicity of (x,k) is the number of elements
   with id x having that broken link (duplicates counted separately) *)
Theorem C15_check_count : forall m x k, countw (x, k) (check m) = expected_count m x k.
Proof.
  intros m x k. unfold check, expected_count. rewrite !countw_app, Nat.add_assoc.
  f_equal; [f_equal|]; apply countw_flat_map.
  - apply countw_check_wall.
  - apply countw_check_win.
  - apply countw_check_tb.
Qed.

(* nothing is emitted exactly for closed models *)
Theorem C15_check_closed : forall m, check m = [] <-> closed_basic m.
Proof. exact check_closed. Qed.

(* the comparison used by the correspondence is sound *)
Theorem C15_same_multiset_sound : forall a b,
  same_multiset a b = true -> forall x, countw x a = countw x b.
Proof.
  unfold same_multiset. intros a b H x. rewrite forallb_forall in H.
  destruct (Nat.eq_dec (countw x (a ++ b)) 0) as [E|E].
  - rewrite countw_app in E. apply Nat.eq_add_0 in E as [-> ->]. reflexivity.
  - apply Nat.eqb_eq, H, countw_In, E.
Qed.

(* non-vacuity: a wall whose space is missing and a bridge of negative length give exactly these
   two warnings; a bridge of length 0 is not reported *)
Definition ex_geom := mkWallGeom 90 0 None [].
Definition ex_model : model :=
  mkModel (mkMeta true true 1 0%N None None 0 0)
    [] [mkWall 7%N EXTERIOR 8%N 9%N None ex_geom] [] [mkTb 3%N TB_GENERIC 0 0; mkTb 4%N TB_ROOF (-1) 0]
    [] (mkConsDb [mkWallCons 8%N [] 0] [] [] [] []) (mkSchedDb [] [] []) [] [] [] [].
Example C15_example : check ex_model = [(7%N, WallSpace); (4%N, BridgeNeg)].
Proof. reflexivity. Qed.
