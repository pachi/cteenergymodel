(* C02 — converted models are referentially closed, or conversion fails with an error
   (about the name-level model of parse + convert, Model/Convert.v). *)
From Coq Require Import NArith Bool List.
From CTE Require Import Model.Convert Proofs.ConvertP.
Import ListNotations.
Local Open Scope N_scope.

(* whenever the modelled conversion yields a model, every reference (wall -> space, construction,
   adjacent space; window -> wall, construction -> glazing, frame; layers -> materials; conditions ->
   yearly schedules; yearly -> weekly -> daily) resolves to a definition of the project *)
Theorem C02_convert_closed : forall b, convert b = COk -> links_closed b = true.
Proof.
  intros b (Hp & Hc & Hw & Hn & Hs & Hl & Ht)%convert_ok.
  unfold links_closed, parse_ok, cons_step, walls_step, windows_wall_missing in *.
  (* forallb distributes over &&: the wall and window conjuncts of links_closed are conjuncts of the steps *)
  rewrite !forallb_andb in *. apply negb_false_iff in Hn.
  apply andb_prop in Hp as [_ [_ Hpc]%andb_prop], Hc as [Hca Hcg], Hw as [Hws Hwn].
  repeat (apply andb_true_intro; split); try assumption; apply forallb_forall.
  - intros c Hin. unfold loads_step in Hl. rewrite forallb_forall in Hl. cbn.
    rewrite andb_true_r, andb_assoc. exact (Hl c Hin).
  - intros s Hin. unfold thermostats_step in Ht. rewrite forallb_forall in Ht. specialize (Ht s Hin).
    destruct (by_scheds s) as [[c h]|]; [|reflexivity]. cbn. rewrite andb_true_r. exact Ht.
  - intros y Hin. apply year_res_ok, (first_bad_ok _ Hs), in_or_app. right. apply in_map, Hin.
  - intros w Hin. apply week_res_ok, (first_bad_ok _ Hs), in_or_app. left. apply in_map, Hin.
Qed.

(* a project in which one of those references is broken is never turned into a model *)
Theorem C02_convert_rejects : forall b, links_closed b = false -> convert b <> COk.
Proof. intros b H E. rewrite (C02_convert_closed b E) in H. discriminate. Qed.

(* a window whose wall is missing is rejected with an error (it crashed the converter before 0894e0a) *)
Theorem C02_window_wall_missing_rejected : forall b,
  parse_ok b = true -> cons_step b = true -> walls_step b = true -> windows_wall_missing b = true -> convert b = CErr.
Proof. intros b A B C D. unfold convert. rewrite A, B, C, D. reflexivity. Qed.

(* the one link kind that is not rejected: a space naming undefined space / system conditions is
   converted with `loads: None` (the known finding of /verif/known_findings.json; the full statement "every broken name reference
   is rejected" is false of the faithful model) *)
Theorem C02_space_conds_refuted : space_conds_dangling wit = true /\ convert wit = COk.
Proof. split; reflexivity. Qed.

(* non-vacuity: a closed project converts; with the layer's material renamed (22 to 23) it is rejected *)
Example C02_example :
  convert (mkBDoc [mkBSpace 1 2 3 4] [mkBWall 10 1 20 None None] [mkBWin 30 10 40] [2] [(20, 21)] [(21, [22])] [22]
                  [(40, (41, 42))] [41] [42] [mkBConds 3 5 5 5] [mkBSys 4 (Some (5, 5))] [(5, [6])] [(6, [7])] [7] 50) = COk /\
  convert (mkBDoc [mkBSpace 1 2 3 4] [mkBWall 10 1 20 None None] [mkBWin 30 10 40] [2] [(20, 21)] [(21, [23])] [22]
                  [(40, (41, 42))] [41] [42] [mkBConds 3 5 5 5] [mkBSys 4 (Some (5, 5))] [(5, [6])] [(6, [7])] [7] 50) = CErr.
Proof. split; reflexivity. Qed.
