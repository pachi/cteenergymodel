(* C18 — HULC file parsers recover every value that is written in the file: the block level of Model/Bdl.v on the
   printed documents of Model/BdlDoc.v, the result files (Model/Kyg.v, Model/Tbl.v) and the typed elements read from
   the blocks (Model/BdlTyped.v, BdlTypedEnv.v, BdlTypedDb.v).  That these models agree with hulc is the
   correspondence's part (Model/C18Case.v).  The printed layouts (pline, render, contents) are in Proofs/BdlP.v; what
   a printer may write (wf_kwall, wf_telem, coord_ok, count_ok …) stands with the lemmas of each reader in Proofs/. *)
From Coq Require Import NArith QArith Bool List String Lia.
From CTE Require Import Model.Bdl Model.BdlDoc Model.Kyg Model.Tbl Model.BdlTyped Model.BdlTypedEnv Model.BdlTypedDb.
From CTE Require Import Proofs.ListP Proofs.BdlP Proofs.BdlPreambleP Proofs.KygP Proofs.TblP.
From CTE Require Import Proofs.BdlTypedP Proofs.BdlTypedDbP Proofs.BdlPolySchedP Proofs.BdlEnvP.
Import ListNotations.

(* layout never matters: indentation, trailing blanks, CR before LF, blank lines, comment and LIDER
   header lines vanish, whatever their number and position *)
Theorem C18_layout_erased : forall pls, pls <> [] -> forallb wf_pline pls = true ->
  forallb not_removed (render pls) = true -> content_lines (render pls) = contents pls.
Proof. intros pls _. apply content_lines_render. Qed.

(* attributes of any number, order and kind (numbers, bare words, quoted strings, one-line and
   multi-line lists) are recovered with the written value *)
Theorem C18_attributes_recovered : forall attrs more acc, forallb wf_attr attrs = true ->
  parse_attrs (flat_map attr_lines attrs ++ more) acc None =
  parse_attrs more (fold_left (fun m a => attr_insert (at_key a) (value_result (at_val a)) m) attrs acc) None.
Proof. exact attrs_parse. Qed.

(* a printed block is parsed to its name, its keyword's type and its attributes *)
Theorem C18_block_recovered : forall b, wf_block b = true ->
  exists blk, raw_block b = Some blk /\ parse_block (join [nl] (body_lines b)) = Ok blk.
Proof. exact parse_block_body. Qed.

(* a printed document of any number of blocks, in any admissible layout, parses to exactly the blocks
   written, with the parents the floor / space / wall nesting gives *)
Theorem C18_roundtrip : forall d pls,
  wf_doc d = true -> pls <> [] -> forallb wf_pline pls = true -> forallb not_removed (render pls) = true ->
  contents pls = doc_lines d ->
  first_marker lider_markers (join [nl] (doc_lines d)) = None ->
  exists l, expected_from init_ps d = Some l /\ build_blocks (render pls) = Ok l.
Proof.
  intros d pls Hwf _ Hpl Hrm Hc Hm.
  destruct (blocks_loop_doc d init_ps Hwf) as (l & He & Hl). exists l. split; [exact He|].
  unfold build_blocks, sanitize, clean_lines. rewrite (content_lines_render pls Hpl Hrm), Hc, Hm.
  rewrite <- (app_nil_l (join [nl] (doc_lines d))), (block_texts_doc d [] (or_introl eq_refl) Hwf). exact Hl.
Qed.

(* what comes back: one block per written block, with its name, its keyword's type and its attributes *)
Theorem C18_recovered_fields : forall d st l, expected_from st d = Some l ->
  map b_name l = map ab_name d /\
  map b_attrs l = map (fun b => attrs_result (ab_attrs b)) d /\
  map (fun x => Some (b_type x)) l = map (fun b => parse_type (ab_kw b)) d.
Proof.
  induction d as [|b r IH]; intros st l H; cbn [expected_from] in H.
  - injection H as <-. repeat split; reflexivity.
  - unfold raw_block in H. destruct (parse_type (ab_kw b)) as [t|] eqn:Et; [|discriminate].
    destruct (parent_step st _) as [par st']. destruct (expected_from st' r) as [l'|] eqn:Er; [|discriminate]. injection H as <-.
    destruct (IH st' l' Er) as (H1 & H2 & H3). cbn [map b_name b_attrs b_type]. rewrite H1, H2, H3, Et. repeat split; reflexivity.
Qed.

(* the typing of a written value: numeric tokens become numbers with exactly that token *)
Theorem C18_numbers_typed : forall v, is_number v = true -> typed v = VNum v.
Proof. intros v H. unfold typed. rewrite H. reflexivity. Qed.

(* the loose attribute lines legacy LIDER files put before the general data block come back as the
   attributes of a PARTELIDER block, followed by the blocks of the document *)
Theorem C18_preamble_roundtrip : forall pre d pls,
  pre <> [] -> forallb wf_attr pre = true -> wf_doc d = true ->
  pls <> [] -> forallb wf_pline pls = true -> forallb not_removed (render pls) = true ->
  contents pls = pre_lines pre ++ doc_lines d ->
  first_marker lider_markers (join [nl] (pre_lines pre ++ doc_lines d)) =
    Some (join [nl] (pre_lines pre) ++ [nl], join [nl] (doc_lines d)) ->
  exists l, expected_from init_ps d = Some l /\ build_blocks (render pls) = Ok (partelider_block pre :: l).
Proof.
  intros pre d pls Hpre Hwfp Hwf _ Hpl Hrm Hc Hm.
  destruct (blocks_loop_doc (pre_ablock pre :: d) init_ps) as (l' & He & Hl).
  { cbn [wf_doc forallb]. rewrite wf_pre_ablock, Hwfp. exact Hwf. }
  rewrite expected_preamble in He. destruct (expected_from init_ps d) as [l|]; [|discriminate]. injection He as <-.
  exists l. split; [reflexivity|].
  unfold build_blocks, sanitize, clean_lines. rewrite (content_lines_render pls Hpl Hrm), Hc, Hm, preamble_texts by assumption. exact Hl.
Qed.

(* KyGananciasSolares.txt: a printed element line of either column layout, with either decimal
   separator in its numbers, is read back field by field (orientation O is handed out as W) *)
Theorem C18_kyg_wall_roundtrip : forall w, wf_kwall w = true -> parse_kline (print_wall w) = LWall w.
Proof.
  intros [n a u b ext] [Hf Hn]%andb_prop. unfold print_wall. cbn [kw_name kw_a kw_u kw_btrx kw_new] in *.
  destruct ext as [[[t o] c]|]; [exact (wall_line n a u b [t; o; c] Hf Hn) | exact (wall_line n a u b [] Hf Hn)].
Qed.
Theorem C18_kyg_window_roundtrip : forall w, wf_kwin w = true ->
  parse_kline (print_win w) = LWin (mkKN (kn_name w) (kn_a w) (kn_u w) (replace_O_W (kn_orient w)) (kn_ff w) (kn_new w)).
Proof.
  intros [n a u o ff ext] [[Hf Hn]%andb_prop Hx]%andb_prop. unfold print_win. cbn [kn_name kn_a kn_u kn_orient kn_ff kn_new] in *.
  destruct ext as [[[[[g u1] u2] i] c]|]; cbn [app]; rewrite (win_line n a u o ff _ Hf Hn), ?Hx; reflexivity.
Qed.
Theorem C18_kyg_bridge_roundtrip : forall t, wf_ktb t = true -> parse_kline (print_tb t) = LTb t.
Proof.
  intros [lg psi n sd] [Hf Hn]%andb_prop. unfold print_tb. cbn [kt_l kt_psi kt_name kt_sisdim] in *.
  destruct sd as [|x s]; [exact (tb_line lg psi n [] Hf Hn) | exact (tb_line lg psi n [x :: s] Hf Hn)].
Qed.
Theorem C18_kyg_line_layout : forall w1 w2 l, all_wsb w1 = true -> all_wsb w2 = true -> edges_ok l = true ->
  parse_kline (trim (w1 ++ l ++ w2)) = parse_kline l.
Proof. intros w1 w2 l H1 H2 Hl. rewrite (trim_wrap w1 l w2 H1 H2 Hl). reflexivity. Qed.

(* typed elements: what a typed reader looks up in the attribute map of a parsed block is the last value
   written under that key, typed as number or string; absent attributes are absent (so defaults apply) *)
Theorem C18_lookup_written : forall k l, lookup_attr k (attrs_result l) = last_written k l.
Proof. intros k l. unfold attrs_result. rewrite lookup_written. destruct (last_written k l); reflexivity. Qed.
Theorem C18_material_defaults : forall b c d, get_text "TYPE" (b_attrs b) = Some (s2l "PROPERTIES") ->
  get_num "CONDUCTIVITY" (b_attrs b) = Some c -> get_num "DENSITY" (b_attrs b) = Some d ->
  get_text "GROUP" (b_attrs b) = None -> get_num "SPECIFIC-HEAT" (b_attrs b) = None ->
  exists m, material_of b = Ok m /\ tm_group m = s2l "Materiales" /\
            tm_props m = Some (get_num "THICKNESS" (b_attrs b), c, d, NConst 800%Q, get_num "VAPOUR-DIFFUSIVITY-FACTOR" (b_attrs b)).
Proof.
  intros b c d Ht Hc Hd Hg Hs.
  evar (m : tmaterial). exists m.  (* the record behind a name: the conjuncts to come then carry m, not its fields *)
  split; [unfold material_of, m; rewrite Ht, str_eqb_refl, Hc, Hd, Hg, Hs; reflexivity|]. split; reflexivity.
Qed.
Theorem C18_floor_defaults : forall b h p, get_num "X" (b_attrs b) = None -> get_num "Y" (b_attrs b) = None ->
  get_num "SPACE-HEIGHT" (b_attrs b) = Some h -> get_text "PREVIOUS" (b_attrs b) = Some p ->
  get_num "Z" (b_attrs b) = None -> get_num "MULTIPLIER" (b_attrs b) = None ->
  floor_of b = Ok (mkTFl (b_name b) (NConst 0%Q) h (NConst 1%Q) p).
Proof. intros b h p Hx Hy Hh Hp Hz Hm. unfold floor_of. rewrite Hx, Hy, Hh, Hp, Hz, Hm. reflexivity. Qed.

(* walls: a written TILT is the wall's tilt (the LOCATION default applies only without it) *)
Theorem C18_wall_written_tilt_wins : forall b w tk, wall_of b = Ok w -> get_num "TILT" (b_attrs b) = Some tk -> twl_tilt w = NTok tk.
Proof. intros b w tk H Ht. destruct (wall_of_fields b w H) as (_ & E & _). rewrite Ht in E. exact E. Qed.
(* ... and without it: roofs and ceilings 0, floors 180, everything else 90; a floor always has azimuth 180, other
   elements the written azimuth or 0; position defaults to 0; only interior partitions keep NEXT-TO *)
Theorem C18_wall_defaults : forall b w, wall_of b = Ok w -> get_num "TILT" (b_attrs b) = None ->
  twl_tilt w = (if N.eqb (b_type b) CTEGen.BdlTypes.BT_Roof || loc_is w "TOP" then NConst 0 else if loc_is w "BOTTOM" then NConst 180 else NConst 90) /\
  twl_azimuth w = (if loc_is w "BOTTOM" then NConst 180 else num_or (get_num "AZIMUTH" (b_attrs b)) 0) /\
  twl_x w = num_or (get_num "X" (b_attrs b)) 0 /\ twl_y w = num_or (get_num "Y" (b_attrs b)) 0 /\ twl_z w = num_or (get_num "Z" (b_attrs b)) 0 /\
  twl_nextto w = (match twl_bounds w with TB_INTERIOR => get_text "NEXT-TO" (b_attrs b) | _ => None end).
Proof. intros b w H Ht. destruct (wall_of_fields b w H) as (_ & E & R). rewrite Ht in E. exact (conj E R). Qed.
Theorem C18_wall_boundary : forall b w, wall_of b = Ok w ->
  twl_bounds w = (if N.eqb (b_type b) CTEGen.BdlTypes.BT_InteriorWall
                  then (if match get_text "INT-WALL-TYPE" (b_attrs b) with Some k => str_eqb k (s2l "ADIABATIC") | None => false end then TB_ADIABATIC else TB_INTERIOR)
                  else if N.eqb (b_type b) CTEGen.BdlTypes.BT_UndergroundWall then TB_GROUND else TB_EXTERIOR).
Proof. intros b w H. apply (wall_of_fields b w H). Qed.
(* spaces: inside the thermal envelope when the file says SI, or when it says nothing and the space is
   conditioned; use and system conditions default to the SPACE-TYPE name; position and azimuth default to 0 *)
Theorem C18_space_defaults : forall b s, space_of b = Ok s ->
  tsp_inside s = (match get_text "perteneceALaEnvolventeTermica" (b_attrs b) with
                  | Some v => str_eqb v (s2l "SI")
                  | None => match get_text "TYPE" (b_attrs b) with Some ty => str_eqb ty (s2l "CONDITIONED") | None => false end end) /\
  Some (tsp_spaceconds s) = (match get_text "SPACE-CONDITIONS" (b_attrs b) with Some c => Some c | None => get_text "SPACE-TYPE" (b_attrs b) end) /\
  Some (tsp_systemconds s) = (match get_text "SYSTEM-CONDITIONS" (b_attrs b) with Some c => Some c | None => get_text "SPACE-TYPE" (b_attrs b) end) /\
  tsp_x s = num_or (get_num "X" (b_attrs b)) 0 /\ tsp_y s = num_or (get_num "Y" (b_attrs b)) 0 /\
  tsp_z s = num_or (get_num "Z" (b_attrs b)) 0 /\ tsp_azimuth s = num_or (get_num "AZIMUTH" (b_attrs b)) 0.
Proof.
  intros b s. unfold space_of.
  apply some_ok_inv; intros sh _. apply some_ok_inv; intros ty Ety. apply some_ok_inv; intros po _.
  case (negb (str_eqb sh (s2l "POLYGON"))); [discriminate|].
  apply some_ok_inv; intros fl _. apply some_ok_inv; intros pw _. apply some_ok_inv; intros vo _. apply some_ok_inv; intros vr _.
  apply some_ok_inv; intros st Est. apply some_ok_inv; intros mu _. apply some_ok_inv; intros md _.
  intros [= <-]. cbn [tsp_inside tsp_spaceconds tsp_systemconds tsp_x tsp_y tsp_z tsp_azimuth]. repeat split.
  - rewrite Ety. reflexivity.
  - rewrite Est. case (get_text "SPACE-CONDITIONS" (b_attrs b)); reflexivity.
  - rewrite Est. case (get_text "SYSTEM-CONDITIONS" (b_attrs b)); reflexivity.
Qed.

(* lists: every name of a written list of quoted names, and every number of a written list of numbers, comes
   back in order, for any number of items, blanks inside the parentheses (blanks only: trim_parens takes off exactly
   ' ', '(' and ')') and white space around the commas (any: of a multi-line list the readers see the trimmed lines
   appended to one another, Bdl.parse_attrs) *)
Theorem C18_names_list_recovered : forall lead trail g1 g2 ns,
  forallb (N.eqb 32) lead = true -> forallb (N.eqb 32) trail = true -> all_wsb g1 = true -> all_wsb g2 = true ->
  forallb name_item_ok ns = true ->
  namesvec (list_text lead trail g1 g2 (map quoted ns)) = ns.
Proof.
  intros lead trail g1 g2 ns Hl Ht H1 H2 Hok. unfold namesvec. destruct ns as [|n r].
  - rewrite trim_parens_all; [reflexivity|]. unfold list_text. cbn [map join app forallb].
    rewrite !forallb_app, (spaces_pc lead Hl), (spaces_pc trail Ht). reflexivity.
  - rewrite list_text_body by (assumption || discriminate || apply quoted_edges). apply andb_prop in Hok as [Hn Hr].
    cbn [map]. rewrite join_flat_map, quoted_app. exact (quote_items g1 g2 r H1 H2 Hr n Hn).
Qed.
Theorem C18_number_list_recovered : forall lead trail g1 g2 ts,
  forallb (N.eqb 32) lead = true -> forallb (N.eqb 32) trail = true -> all_wsb g1 = true -> all_wsb g2 = true ->
  ts <> [] -> forallb num_item_ok ts = true ->
  f32vec (list_text lead trail g1 g2 ts) = Some ts.
Proof.
  intros lead trail g1 g2 ts Hl Ht H1 H2 Hne Hok. unfold f32vec. rewrite list_items; try assumption.
  - rewrite (forallb_impl _ is_number ts (fun t H => proj1 (num_item_parts t H)) Hok). reflexivity.
  - revert Hok. apply forallb_impl. intros t H. apply (num_item_parts t H).
Qed.
(* LAYERS: the materials and the thicknesses written come back item by item (an air gap takes the thickness in
   its name, HULC writing a placeholder for it) *)
Theorem C18_layers_recovered : forall b lead trail g1 g2 lead' trail' g1' g2' ns ts,
  forallb (N.eqb 32) lead = true -> forallb (N.eqb 32) trail = true -> all_wsb g1 = true -> all_wsb g2 = true ->
  forallb (N.eqb 32) lead' = true -> forallb (N.eqb 32) trail' = true -> all_wsb g1' = true -> all_wsb g2' = true ->
  forallb name_item_ok ns = true -> ts <> [] -> forallb num_item_ok ts = true -> List.length ns = List.length ts ->
  get_text "MATERIAL" (b_attrs b) = Some (list_text lead trail g1 g2 (map quoted ns)) ->
  get_text "THICKNESS" (b_attrs b) = Some (list_text lead' trail' g1' g2' ts) ->
  exists w, wallcons_of b = Ok w /\ twc_name w = b_name b /\ twc_material w = ns /\
            twc_thickness w = zip_with fixed_thickness ns ts.
Proof.
  intros b lead trail g1 g2 lead' trail' g1' g2' ns ts A1 A2 A3 A4 B1 B2 B3 B4 Hns Hne Hts Hlen Hm Ht.
  unfold wallcons_of. rewrite Hm, Ht, C18_names_list_recovered, C18_number_list_recovered, Hlen, Nat.eqb_refl by assumption.
  eexists. repeat split.
Qed.
(* the wall constructions of the database: a name that is a construction's gives the layers that construction
   refers to under the construction's name with the construction's absorptance; a name that is a layers
   definition's gives those layers with the default absorptance 0.6; of two definitions under one name the
   one written last is found *)
Theorem C18_wallcons_by_construction : forall ls cs n c l,
  last_by twc_name n ls = None -> str_eqb n (s2l "Ninguno") = false ->
  last_by tcn_name n cs = Some c -> last_by twc_name (tcn_layers c) ls = Some l ->
  wallcons_lookup ls cs n = Some (mkTWC n (twc_group l) (twc_material l) (twc_thickness l), tcn_absorptance c).
Proof. intros ls cs n c l H1 H2 H3 H4. unfold wallcons_lookup, layers_named. rewrite H1, H2, H3, H4. reflexivity. Qed.
Theorem C18_wallcons_by_layers : forall ls cs n l,
  last_by twc_name n ls = Some l -> wallcons_lookup ls cs n = Some (l, NConst (6 # 10)).
Proof. intros ls cs n l H. unfold wallcons_lookup, layers_named. rewrite H. reflexivity. Qed.
Theorem C18_last_definition_wins : forall (l1 l2 : list twallcons) x,
  forallb (fun y => negb (str_eqb (twc_name y) (twc_name x))) l2 = true ->
  last_by twc_name (twc_name x) (l1 ++ x :: l2) = Some x.
Proof. exact (@last_definition_wins twallcons twc_name). Qed.

(* DAY-SCHEDULE-PD: the kind and the 24 (or 1) hourly values *)
Theorem C18_day_schedule_recovered : forall b kt k lead trail g1 g2 ts,
  get_text "TYPE" (b_attrs b) = Some kt -> skind_of kt = Some k ->
  forallb (N.eqb 32) lead = true -> forallb (N.eqb 32) trail = true -> all_wsb g1 = true -> all_wsb g2 = true ->
  forallb num_item_ok ts = true -> (List.length ts = 24%nat \/ List.length ts = 1%nat) ->
  get_text "VALUES" (b_attrs b) = Some (list_text lead trail g1 g2 ts) ->
  day_of b = Ok (TDay (squeeze2 (b_name b)) k ts).
Proof.
  intros b kt k lead trail g1 g2 ts Ht Hk A1 A2 A3 A4 Hts Hlen Hv. unfold day_of, kind_of.
  rewrite Ht, Hk, Hv, C18_number_list_recovered by (assumption || (intros ->; destruct Hlen; discriminate)).
  unfold len_1_or. destruct Hlen as [-> | ->]; reflexivity.
Qed.
(* WEEK-SCHEDULE-PD: the seven (or one) daily schedules named; a week of any other length is rejected *)
Theorem C18_week_schedule_recovered : forall b kt k lead trail g1 g2 ns,
  get_text "TYPE" (b_attrs b) = Some kt -> skind_of kt = Some k ->
  forallb (N.eqb 32) lead = true -> forallb (N.eqb 32) trail = true -> all_wsb g1 = true -> all_wsb g2 = true ->
  forallb name_item_ok ns = true -> (List.length ns = 7%nat \/ List.length ns = 1%nat) ->
  get_text "DAY-SCHEDULES" (b_attrs b) = Some (list_text lead trail g1 g2 (map quoted ns)) ->
  week_of b = Ok (TWeek (squeeze2 (b_name b)) k ns).
Proof.
  intros b kt k lead trail g1 g2 ns Ht Hk A1 A2 A3 A4 Hns Hlen Hv. unfold week_of, kind_of.
  rewrite Ht, Hk, Hv, C18_names_list_recovered by assumption.
  unfold len_1_or. destruct Hlen as [-> | ->]; reflexivity.
Qed.
Theorem C18_week_schedule_length : forall b kt k lead trail g1 g2 ns,
  get_text "TYPE" (b_attrs b) = Some kt -> skind_of kt = Some k ->
  forallb (N.eqb 32) lead = true -> forallb (N.eqb 32) trail = true -> all_wsb g1 = true -> all_wsb g2 = true ->
  forallb name_item_ok ns = true -> List.length ns <> 7%nat -> List.length ns <> 1%nat ->
  get_text "DAY-SCHEDULES" (b_attrs b) = Some (list_text lead trail g1 g2 (map quoted ns)) ->
  week_of b = Err 10.
Proof.
  intros b kt k lead trail g1 g2 ns Ht Hk A1 A2 A3 A4 Hns H7 H1 Hv. unfold week_of, kind_of.
  rewrite Ht, Hk, Hv, C18_names_list_recovered by assumption.
  unfold len_1_or. apply Nat.eqb_neq in H7, H1. rewrite H7, H1. reflexivity.
Qed.
(* GAP: every written value reaches its field; the documented defaults apply to the three optional ones *)
Theorem C18_gap_recovered : forall b g gg f fg p i,
  get_text "GLASS-TYPE" (b_attrs b) = Some g -> get_text "GROUP-GLASS" (b_attrs b) = Some gg ->
  get_text "NAME-FRAME" (b_attrs b) = Some f -> get_text "GROUP-FRAME" (b_attrs b) = Some fg ->
  get_num "PORCENTAGE" (b_attrs b) = Some p -> get_num "INF-COEF" (b_attrs b) = Some i ->
  exists w, wincons_of b = Ok w /\ twn_name w = b_name b /\ twn_glass w = g /\ twn_glassgroup w = gg /\ twn_frame w = f /\
            twn_framegroup w = fg /\ twn_percentage w = p /\ twn_infcoeff w = i /\
            twn_group w = match get_text "GROUP" (b_attrs b) with Some x => x | None => s2l "Ventanas" end /\
            twn_deltau w = num_or (get_num "porcentajeIncrementoU" (b_attrs b)) 0 /\
            twn_gglshwi w = get_num "TransmisividadJulio" (b_attrs b).
Proof.
  intros b g gg f fg p i H1 H2 H3 H4 H5 H6. evar (w : twincons). exists w.
  split; [unfold wincons_of, w; rewrite H1, H2, H3, H4, H5, H6; reflexivity|]. repeat split.
Qed.
(* THERMAL-BRIDGE defined by the user (DEFINICION = 2) or in an old LIDER file (no DEFINICION): length, psi,
   f_Rsi and, for the kinds that have one, the geometry of the junction are the written ones; no catalogue data *)
Theorem C18_bridge_user_defined : forall b psi frsi,
  str_eqb (b_name b) (s2l "LONGITUDES_CALCULADAS") = false ->
  get_num "TTL" (b_attrs b) = Some psi -> get_num "FRSI" (b_attrs b) = Some frsi ->
  (get_num "DEFINICION" (b_attrs b) = None \/ exists d, get_num "DEFINICION" (b_attrs b) = Some d /\ trunc_tok d = 2%Z) ->
  forall ty mn mx pa, get_text "TYPE" (b_attrs b) = Some ty ->
  str_eqb ty (s2l "WINDOW-FRAME") = false -> str_eqb ty (s2l "PILLAR") = false -> is_empty ty = false ->
  get_num "ANGLE-MIN" (b_attrs b) = Some mn -> get_num "ANGLE-MAX" (b_attrs b) = Some mx -> get_text "PARTITION" (b_attrs b) = Some pa ->
  tb_of b = Ok (mkTBr (b_name b) (get_num "LONG-TOTAL" (b_attrs b)) ty (NTok psi) (NTok frsi) (Some (mn, mx, pa)) None).
Proof.
  intros b psi frsi Hn Hp Hf Hd ty mn mx pa Hty N1 N2 N3 Hmn Hmx Hpa.
  unfold tb_of.
  (* the catalogue data of a DEFINICION = 3 bridge, over half of tb_of, set aside while the rest is rewritten *)
  set (cat := match get_num "DEFINICION" (b_attrs b) with Some _ => _ | None => _ end).
  rewrite Hn, Hp, Hf, Hty, N1, N2, N3, Hmn, Hmx, Hpa. cbn [orb]. unfold cat.
  destruct Hd as [-> | (d & -> & ->)]; reflexivity.
Qed.
(* the measured-lengths block carries no psi of its own *)
Theorem C18_bridge_lengths_block : forall b,
  str_eqb (b_name b) (s2l "LONGITUDES_CALCULADAS") = true -> get_text "TYPE" (b_attrs b) = None ->
  get_num "DEFINICION" (b_attrs b) = None ->
  tb_of b = Ok (mkTBr (b_name b) (get_num "LONG-TOTAL" (b_attrs b)) [] (NConst 0) (NConst 0) None None).
Proof. intros b Hn Ht Hd. unfold tb_of. rewrite Hn, Ht, Hd. reflexivity. Qed.

(* polygons: a vertex written "( x, y )" gives its two coordinates, and V1 .. Vn come back in the order of
   their numbers whatever their order in the file (the attribute map is sorted by key, V10 before V2) *)
Theorem C18_vertex_recovered : forall lead g1 g2 trail x y,
  forallb (N.eqb 32) lead = true -> forallb (N.eqb 32) g1 = true -> forallb (N.eqb 32) g2 = true -> forallb (N.eqb 32) trail = true ->
  coord_ok x = true -> coord_ok y = true ->
  point2 (point_text lead g1 g2 trail x y) = Some [x; y].
Proof.
  intros lead g1 g2 trail x y Hl H1 H2 Ht [[Nx Cx%negb_true_iff]%andb_prop Ex]%andb_prop [[Ny Cy%negb_true_iff]%andb_prop Ey]%andb_prop.
  change has_char with has in Cx, Cy. unfold point2.
  replace (point_text lead g1 g2 trail x y) with ((([40%N] ++ lead) ++ x ++ g1) ++ 44%N :: (g2 ++ y ++ (trail ++ [41%N])))
    by (unfold point_text; cbn [app]; rewrite <- !app_assoc; reflexivity).
  rewrite split_on_app, split_on_no.
  - cbn [map]. rewrite (trim_parens_wrap ([40%N] ++ lead) x g1 (spaces_pc lead Hl) (spaces_pc g1 H1) Ex),
      (trim_parens_wrap g2 y (trail ++ [41%N]) (spaces_pc g2 H2)), Nx, Ny; [reflexivity | | exact Ey].
    rewrite forallb_app, (spaces_pc trail Ht). reflexivity.
  - apply has_false_forallb.
    rewrite !has_app, Cy, (has_not is_ws 44%N g2 eq_refl (spaces_ws g2 H2)), (has_not is_ws 44%N trail eq_refl (spaces_ws trail Ht)). reflexivity.
  - apply has_false_forallb.
    rewrite !has_app, Cx, (has_not is_ws 44%N lead eq_refl (spaces_ws lead Hl)), (has_not is_ws 44%N g1 eq_refl (spaces_ws g1 H1)). reflexivity.
Qed.
Theorem C18_polygon_recovered : forall a pts start fuel,
  (List.length pts < fuel)%nat ->
  (forall k, (k < List.length pts)%nat -> exists s, lookup_attr (vkey (start + k)) a = Some (VStr s) /\ point2 s = Some (nth k pts [])) ->
  match lookup_attr (vkey (start + List.length pts)) a with Some (VStr _) => False | _ => True end ->
  polygon_from fuel start a = Some pts.
Proof.
  intros a. induction pts as [|p r IH]; intros start [|f] Hf Hk Hend; try (cbn in Hf; lia); cbn [polygon_from]; fold (vkey start).
  - cbn [List.length] in Hend. rewrite Nat.add_0_r in Hend.
    destruct (lookup_attr (vkey start) a) as [[t|s]|]; try reflexivity. contradiction.
  - destruct (Hk 0%nat ltac:(cbn; lia)) as (s & Hs & Hp). rewrite Nat.add_0_r in Hs.
    rewrite Hs, Hp, (IH (S start) f); [reflexivity | cbn in Hf; lia | |].
    + intros k Hlt. rewrite Nat.add_succ_comm. apply (Hk (S k)). cbn. lia.
    + rewrite Nat.add_succ_comm. exact Hend.
Qed.
(* year schedules: the lists of months, days and weekly schedules come back item by item *)
Theorem C18_count_list_recovered : forall lead trail g1 g2 ds,
  forallb (N.eqb 32) lead = true -> forallb (N.eqb 32) trail = true -> all_wsb g1 = true -> all_wsb g2 = true ->
  ds <> [] -> forallb count_ok ds = true ->
  u32vec (list_text lead trail g1 g2 ds) = Some (map (fun d => digits_val d 0) ds).
Proof.
  intros lead trail g1 g2 ds Hl Ht H1 H2 Hne Hok. unfold u32vec. rewrite <- (map_map trim parse_u32), list_items; try assumption.
  - exact (counts_parsed ds Hok).
  - revert Hok. apply forallb_impl. intros d H. apply (count_item d H).
Qed.
Theorem C18_year_schedule_recovered : forall b kt k l1 t1 a1 b1 l2 t2 a2 b2 l3 t3 a3 b3 ms ds ws,
  get_text "TYPE" (b_attrs b) = Some kt -> skind_of kt = Some k ->
  forallb (N.eqb 32) l1 = true -> forallb (N.eqb 32) t1 = true -> all_wsb a1 = true -> all_wsb b1 = true ->
  forallb (N.eqb 32) l2 = true -> forallb (N.eqb 32) t2 = true -> all_wsb a2 = true -> all_wsb b2 = true ->
  forallb (N.eqb 32) l3 = true -> forallb (N.eqb 32) t3 = true -> all_wsb a3 = true -> all_wsb b3 = true ->
  ms <> [] -> forallb count_ok ms = true -> ds <> [] -> forallb count_ok ds = true -> forallb name_item_ok ws = true ->
  get_text "MONTH" (b_attrs b) = Some (list_text l1 t1 a1 b1 ms) ->
  get_text "DAY" (b_attrs b) = Some (list_text l2 t2 a2 b2 ds) ->
  get_text "WEEK-SCHEDULES" (b_attrs b) = Some (list_text l3 t3 a3 b3 (map quoted ws)) ->
  year_of b = Ok (TYear (squeeze2 (b_name b)) k (map (fun d => digits_val d 0) ds) (map (fun d => digits_val d 0) ms) ws).
Proof.
  intros b kt k l1 t1 a1 b1 l2 t2 a2 b2 l3 t3 a3 b3 ms ds ws Ht Hk A1 A2 A3 A4 B1 B2 B3 B4 C1 C2 C3 C4 Hm Hmo Hd Hdo Hw Em Ed Ew.
  unfold year_of, kind_of. rewrite Ht, Hk, Ed, Em, Ew, !C18_count_list_recovered, C18_names_list_recovered by assumption. reflexivity.
Qed.

(* NewBDL_O.tbl: an element / a space written as a name line and a values line (any blanks in front of the
   values) is read back value by value *)
Theorem C18_tbl_element_roundtrip : forall e s1 s2 pre, wf_telem e s1 s2 = true -> all_wsb pre = true ->
  parse_elem (te_name e) (pre ++ join [32%N] (te_vals e ++ [te_type e; s1; s2])) = Some e.
Proof. exact elem_roundtrip. Qed.
Theorem C18_tbl_space_roundtrip : forall s si sm pre, wf_tspace s si sm = true -> all_wsb pre = true ->
  parse_space (ts_name s) (pre ++ join [32%N] [si; sm; ts_area s; ts_qint s]) = Some s.
Proof.
  intros s si sm pre. unfold wf_tspace, parse_space. intros [[[[Hn Hw]%andb_prop Ha]%andb_prop Hq]%andb_prop Hz]%andb_prop Hp.
  rewrite (split_ws_line _ _ pre Hn Hw Hp). destruct s as [name zi zm a q]; cbn [ts_name ts_id ts_mult ts_area ts_qint] in *.
  destruct (parse_i32 si) as [y1|]; [|discriminate]. destruct (parse_i32 sm) as [y2|]; [|discriminate].
  apply andb_prop in Hz as [->%Z.eqb_eq ->%Z.eqb_eq]. rewrite Ha, Hq. reflexivity.
Qed.

(* non-vacuity: a two-block document with an upper-case exponent, a quoted name and a three-line list,
   printed with tabs, CR LF, blank and comment lines, meets every hypothesis of C18_roundtrip *)
Local Open Scope string_scope.
Definition ex_doc : list ablock :=
  [ mkAB (s2l "P01_E01") (s2l " ") (s2l " ") (s2l "SPACE")
      [ mkAttr (s2l "HEIGHT") (s2l "   ") (s2l " ") (ANum (s2l "2.5E+00"));
        mkAttr (s2l "POLYGON") (s2l " ") (s2l "") (AQuoted (s2l "P01_E01_Pol2")) ];
    mkAB (s2l "Muro (25+5)") (s2l "") (s2l "") (s2l "LAYERS")
      [ mkAttr (s2l "MATERIAL") (s2l " ") (s2l " ") (AList (s2l "( ""a"",") [s2l """b"","; s2l """c"")"]) ] ].
Definition cr : list N := [13%N].
Definition ex_layout : list pline :=
  [ PDropped [] 36%N (s2l " comentario .."); PContent (s2l "  ") (header_line (nth 0 ex_doc (mkAB [] [] [] [] []))) cr;
    PContent (s2l "	") (s2l "HEIGHT   = 2.5E+00") (s2l "  " ++ cr); PBlank cr;
    PContent [] (s2l "POLYGON =""P01_E01_Pol2""") cr; PContent (s2l "   ") dotdot cr;
    PContent [] (s2l """Muro (25+5)""=LAYERS") cr; PContent [] (s2l "MATERIAL = ( ""a"",") cr;
    PContent (s2l "    ") (s2l """b"",") cr; PContent (s2l "    ") (s2l """c"")") cr; PContent [] dotdot cr; PBlank [] ].
Example C18_example :
  wf_doc ex_doc = true /\ forallb wf_pline ex_layout = true /\ forallb not_removed (render ex_layout) = true /\
  contents ex_layout = doc_lines ex_doc /\ first_marker lider_markers (join [nl] (doc_lines ex_doc)) = None /\
  match build_blocks (render ex_layout) with
  | Ok [b1; b2] => b_parent b1 = Some (s2l "Default") /\
                   b_attrs b1 = [(s2l "HEIGHT", VNum (s2l "2.5E+00")); (s2l "POLYGON", VStr (s2l "P01_E01_Pol2"))] /\
                   b_attrs b2 = [(s2l "MATERIAL", VStr (s2l "( ""a"",""b"",""c"")"))]
  | _ => False
  end.
Proof.
  (* taken apart before it is evaluated (simple apply: it does not evaluate the goal to look for a conjunction, as
     split would the match): the evaluated parts are long, and every split copies those still to come *)
  repeat simple apply conj; vm_compute; repeat simple apply conj; reflexivity.
Qed.
Definition ex_pre : list aattr :=
  [ mkAttr (s2l "CAMBIO") (s2l " ") (s2l " ") (AWord (s2l "SI"));
    mkAttr (s2l "CONTRIBUCIONRESACS") (s2l "             ") (s2l "           ") (ANum (s2l "1800")) ].
Definition ex_pdoc : list ablock :=
  [ mkAB (s2l "DATOS GENERALES") (s2l " ") (s2l " ") (s2l "GENERAL-DATA") [ mkAttr (s2l "ENGLISH") (s2l " ") (s2l "  ") (AWord (s2l "NO")) ] ].
Example C18_preamble_example :
  forallb wf_attr ex_pre = true /\ wf_doc ex_pdoc = true /\
  first_marker lider_markers (join [nl] (pre_lines ex_pre ++ doc_lines ex_pdoc)%list) =
    Some ((join [nl] (pre_lines ex_pre) ++ [nl])%list, join [nl] (doc_lines ex_pdoc)).
Proof. repeat simple apply conj; vm_compute; reflexivity. Qed.
Example C18_kyg_example :
  wf_kwin (mkKN (s2l "P02_E01_PE001_V") (s2l "2,00") (s2l "1.26") (s2l "SO") (s2l "10,00")
                (Some (s2l "0.79", s2l "-1.00", s2l "1.00", s2l "50.00", s2l "PVC 2"))) = true /\
  wf_kwall (mkKW (s2l "P01_E01_ME001") (s2l "30,00") (s2l "0,30") (s2l "1E0") None) = true.
Proof. split; vm_compute; reflexivity. Qed.

(* non-vacuity of the list theorems: a three-name list with a line feed and blanks after every comma and a list of
   numbers with exponents meet their hypotheses, and the readers give the items *)
Example C18_lists_example :
  let ns := [s2l "Cámara de aire sin ventilar vertical 2 cm"; s2l "1/2 pie LP [80 mm< G < 100 mm]"; s2l "MW Lana mineral [0.04 W/[mK]]"] in
  let ts := [s2l "0.05"; s2l "1.15E-01"; s2l ".04"] in
  forallb name_item_ok ns = true /\ forallb num_item_ok ts = true /\
  namesvec (list_text (s2l " ") [] [] [10%N; 32%N; 32%N] (map quoted ns)) = ns /\
  f32vec (list_text [] (s2l " ") [] (s2l " ") ts) = Some ts /\
  zip_with fixed_thickness ns ts = [NConst (2 # 100); NTok (s2l "1.15E-01"); NTok (s2l ".04")].
Proof. intros ns ts. repeat simple apply conj; vm_compute; reflexivity. Qed.

(* non-vacuity: a twelve-vertex outline written out of order (V10 .. V12 sort before V2) comes back in the order
   of the vertex numbers; a three-span year *)
Example C18_polygon_example :
  let pt (i : nat) := (s2l "( " ++ nat_str 5 i ++ s2l ".5, -" ++ nat_str 5 i ++ s2l " )")%list in
  let a := fold_left (fun m i => attr_insert (vkey i) (pt i) m) [12; 3; 1; 10; 2; 11; 4; 5; 6; 7; 8; 9]%nat [] in
  map fst a = map vkey [1; 10; 11; 12; 2; 3; 4; 5; 6; 7; 8; 9]%nat /\
  polygon_from 1000 1 a = Some (map (fun i => [(nat_str 5 i ++ s2l ".5")%list; 45%N :: nat_str 5 i]) [1; 2; 3; 4; 5; 6; 7; 8; 9; 10; 11; 12]%nat) /\
  forallb count_ok [s2l "5"; s2l "09"; s2l "12"] = true /\
  u32vec (list_text [] [] [] (s2l " ") [s2l "5"; s2l "09"; s2l "12"]) = Some [5; 9; 12]%N.
Proof. intros pt a. repeat simple apply conj; vm_compute; reflexivity. Qed.
