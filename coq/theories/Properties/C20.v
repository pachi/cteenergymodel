(* C20 — solar geometry, radiation identities (Model/Solar.v, over R) and embedded climate tables (checked in
   Proofs/QSolP.v and Proofs/TotalP.v). *)
From Coq Require Import ZArith Reals List Lra.
From CTE Require Import Model.Schedules Model.Solar Model.SolarCase Proofs.SchedulesP Proofs.SolarP Proofs.QSolP Proofs.TotalP.

(* day numbers agree with the calendar for every date of a non-leap year; the two day-of-year
   functions of the code base (climate::nday_from_md, the schedule converter's day_of_year) agree *)
Theorem C20_nday_calendar : forall m d, valid_date m d = true -> nday m d = (cum_days m + d)%Z.
Proof. intros m d _. reflexivity. Qed.
Theorem C20_day_functions_agree : forall m d, valid_date m d = true -> day_of_year d m = nday m d.
Proof. intros m d H. rewrite (day_of_year_calendar m d H). reflexivity. Qed.
Theorem C20_last_day : nday 12 31 = 365%Z.
Proof. reflexivity. Qed.

Local Open Scope R_scope.
(* the sun vector (E, N, Up) from declination, hour angle and latitude is a unit vector; altitude and
   azimuth (from south, east positive) reconstruct it: this is "agrees with spherical astronomy" *)
Theorem C20_sun_unit : forall d w l, sun_E d w * sun_E d w + sun_N d w l * sun_N d w l + sun_U d w l * sun_U d w l = 1.
Proof. intros d w l. unfold sun_E, sun_N, sun_U. ring [(cos2d d) (cos2d w) (cos2d l)]. Qed.
Theorem C20_altitude_azimuth_reconstruct : forall d w l az alt,
  sind alt = sun_U d w l -> cosd alt <> 0 ->
  sind az = sun_E d w / cosd alt -> cosd az = - sun_N d w l / cosd alt ->
  ray_E az alt = sun_E d w /\ ray_N az alt = sun_N d w l /\ ray_U alt = sun_U d w l.
Proof.
  intros d w l az alt Ha Hc Hs Hco. unfold ray_E, ray_N, ray_U. rewrite Hs, Hco, Ha. repeat split; field; exact Hc.
Qed.

(* the incidence angle is the angle between the sun direction and the outward normal under the
   model's tilt / azimuth convention (normal = Rz(azimuth) Rx(tilt) z) *)
Theorem C20_incidence_is_dot : forall d w l b g,
  cos_inc d w l b g = sun_E d w * nrm_E b g + sun_N d w l * nrm_N b g + sun_U d w l * nrm_U b.
Proof. intros d w l b g. unfold cos_inc, sun_E, sun_N, sun_U, nrm_E, nrm_N, nrm_U. ring. Qed.
Theorem C20_normal_unit : forall b g, nrm_E b g * nrm_E b g + nrm_N b g * nrm_N b g + nrm_U b * nrm_U b = 1.
Proof. intros b g. unfold nrm_E, nrm_N, nrm_U. ring [(cos2d b) (cos2d g)]. Qed.
Theorem C20_normal_matches_ray : forall b g az alt,
  nrm_E b g * ray_E az alt + nrm_N b g * ray_N az alt + nrm_U b * ray_U alt =
  sind b * cosd alt * cos (rad az - rad g) + cosd b * sind alt.
Proof.
  intros b g az alt. unfold nrm_E, nrm_N, nrm_U, ray_E, ray_N, ray_U, sind, cosd. rewrite cos_minus. ring.
Qed.

(* radiation identities of the ISO 52010 split *)
Theorem C20_horizontal_conserves : forall gb gdir dif f1 f2 a b rho salt,
  b <> 0 -> a = b -> 0 <= gdir -> gb * salt = gdir ->
  dir_tot gb salt dif f1 a b + dif_tot gb dif f1 f2 a b 0 salt rho = gdir + dif.
Proof.
  intros gb gdir dif f1 f2 a b rho salt Hb -> Hg Hgb.
  unfold dir_tot, dif_tot, i_dir, i_circum, i_dif, i_dif_grnd, cosd, sind, rad.
  replace (0 * PI / 180) with 0 by field. rewrite cos_0, sin_0, Hgb, Rmax_right by exact Hg. field. exact Hb.
Qed.
Theorem C20_downward_albedo : forall gb gdir dif f1 f2 b rho salt ct,
  b <> 0 -> gb * ct <= 0 -> gb * salt = gdir ->
  dir_tot gb ct dif f1 0 b = 0 /\ dif_tot gb dif f1 f2 0 b 180 salt rho = rho * (gdir + dif).
Proof.
  intros gb gdir dif f1 f2 b rho salt ct Hb Hct Hgb.
  unfold dir_tot, dif_tot, i_dir, i_circum, i_dif, i_dif_grnd, cosd, sind, rad.
  replace (180 * PI / 180) with PI by field. rewrite cos_PI, sin_PI, Hgb, Rmax_left by exact Hct. split; field; exact Hb.
Qed.
Theorem C20_beam_nonneg : forall gb ct dif f1 a b, 0 <= dif -> 0 <= f1 -> 0 <= a -> 0 < b -> 0 <= dir_tot gb ct dif f1 a b.
Proof.
  intros gb ct dif f1 a b Hd Hf Ha Hb. unfold dir_tot, i_dir, i_circum. pose proof (Rmax_l 0 (gb * ct)).
  assert (0 <= dif * f1 * a / b) by (apply Rle_mult_inv_pos; [repeat apply Rmult_le_pos|]; assumption). lra.
Qed.

(* embedded tables, as regenerated from /repo on this run: for every zone and orientation class one
   entry with 12 non-negative months; every zone has metadata and a July design day; zone names
   round-trip through their text *)
Theorem C20_monthly_tables : table_shape_ok = true.
Proof. exact table_shape_ok_true. Qed.
Theorem C20_zone_tables : tables_ok = true.
Proof. exact tables_ok_true. Qed.
Theorem C20_zone_names : zones_roundtrip_ok = true.
Proof. vm_compute. reflexivity. Qed.

Example C20_example : nday 3 1 = 60%Z /\ valid_date 3 1 = true /\ day_of_year 1 3 = 60%Z.
Proof. repeat split. Qed.
