(* C11 — reference area, volumes, compactness and envelope membership are consistent (Model/Geometry.v). *)
From Coq Require Import ZArith QArith Qabs Bool List Lqa.
From CTE Require Import Model.BModel Model.Geometry Proofs.GeometryP.
Import ListNotations.
Local Open Scope Q_scope.

(* an element belongs to the envelope exactly when it bounds an inside space towards outside air,
   ground or an adiabatic boundary, or separates an inside space from an outside one *)
Theorem C11_tenv_rule : forall m w,
  tenv_rule m w = true <->
  ((w_bounds w = EXTERIOR \/ w_bounds w = GROUND \/ w_bounds w = ADIABATIC) /\ space_inside m (w_space w) = true) \/
  (w_bounds w = INTERIOR /\
   space_inside m (w_space w) <> match w_next w with Some n => space_inside m n | None => false end).
Proof.
  intros m w. unfold tenv_rule. destruct (w_bounds w); rewrite ?negb_true_iff, ?eqb_false_iff.
  all: split; [intros H; auto 6 | intros [[[H|[H|H]] Hi]|[H Hi]]; try discriminate H; exact Hi].
Qed.

(* scaling all lengths by s scales areas by s2, volumes by s3 and compactness by s *)
Theorem C11_scale_area : forall s l, poly_area (scale_poly s l) == s * s * poly_area l.
Proof.
  intros s l. unfold poly_area. rewrite shoelace2_scale.
  setoid_replace ((1 # 2) * (s * s * shoelace2 l)) with (s * s * ((1 # 2) * shoelace2 l)) by ring.
  rewrite Qabs_Qmult, (Qabs_pos (s * s)) by nra. reflexivity.
Qed.
Theorem C11_scale_volume : forall s a h, (s * s * a) * (s * h) == s * s * s * (a * h).
Proof. intros s a h. ring. Qed.
Theorem C11_scale_compactness : forall s v a, 0 < s -> ~ a == 0 -> (s * s * s * v) / (s * s * a) == s * (v / a).
Proof. intros s v a Hs Ha. field. split; [exact Ha | lra]. Qed.

(* classes depend only on the angle modulo 360 degrees *)
Theorem C11_tilt_periodic : forall t (k : Z), tilt_class (t + inject_Z k * 360) = tilt_class t.
Proof. intros t k. unfold tilt_class. rewrite (normalize_periodic t 0 360 k) by reflexivity. reflexivity. Qed.
Theorem C11_orient_periodic : forall a (k : Z), orient_class (a + inject_Z k * 360) = orient_class a.
Proof. intros a k. unfold orient_class. rewrite (normalize_periodic a 0 360 k) by reflexivity. reflexivity. Qed.
(* the parser and the model classify every tilt in [0,360] identically *)
Theorem C11_classifiers_agree : forall t, 0 <= t <= 360 -> hulc_position t = tilt_class t.
Proof.
  intros t [H0 H1]. unfold hulc_position, tilt_class. destruct (Qlt_le_dec t 360) as [Hlt|Hge].
  - rewrite normalize_id by (split; assumption). reflexivity.
  - (* 360 itself is brought to 0, in the same class *)
    assert (E : t == 360) by lra. rewrite E. reflexivity.
Qed.

(* the ventilation rate reported with the indicators is the one used inside the U-value calculation *)
Theorem C11_vent_rates_agree : forall m, NoDup (map s_id (m_spaces m)) -> vent_props m = vent_model m.
Proof.
  intros m Hnd. unfold vent_props, vent_model, vol_env_inh_net, vol_env_inh_net_raw, vol_inh_net_model.
  rewrite (all_space_props_nodup m Hnd), map_map. reflexivity.
Qed.

(* non-vacuity: a 4 x 3 rectangle has area 12; the classifiers at negative angles and beyond a full turn *)
Example C11_example :
  poly_area [(0, 0); (4, 0); (4, 3); (0, 3)] == 12 /\ tilt_class (-90) = SIDE /\ tilt_class 450 = SIDE /\
  orient_class (-180) = O_N /\ hulc_position 60 = TOP /\ tilt_class (60 + 360) = TOP.
Proof. repeat split; reflexivity. Qed.
