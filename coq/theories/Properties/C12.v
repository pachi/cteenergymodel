(* C12 — obstruction factors are bounded, monotone and ~1 for unobstructed windows.
   The theorems are about Model/Fshobst.v (sunlit_of, fsh) and the exact count of blocked sample points defined in
   Proofs/FshobstP.v. *)
From Coq Require Import ZArith NArith QArith List Lia Lqa.
From CTE Require Import Base.Num Model.Aabb Model.Poly Model.Fshobst Proofs.ListP Proofs.NumP Proofs.FshobstP.
Import ListNotations.
Local Open Scope Q_scope.

(* the sunlit fraction (share of sample points whose line towards the sun meets no candidate
   obstacle) lies in [0,1] for any obstacles, any geometry *)
Theorem C12_sunlit_range : forall cands origins d, origins <> [] -> 0 <= sunlit_exact cands origins d <= 1.
Proof.
  intros cands origins d H. apply sunlit_of_range; [apply filter_length_le | destruct origins; [contradiction | cbn; lia]].
Qed.

(* more obstacles never unblock a point; adding ANY wall or shade never increases a sunlit fraction *)
Theorem C12_blocked_monotone : forall cands cands' d o,
  incl cands cands' -> blocked_exact cands d o = true -> blocked_exact cands' d o = true.
Proof.
  unfold blocked_exact. intros cands cands' d o Hi [c [Hin Hh]]%existsb_exists.
  apply existsb_exists. exists c. split; [apply Hi, Hin | exact Hh].
Qed.
Theorem C12_add_obstacle_le : forall c cands origins d, origins <> [] ->
  sunlit_exact (c :: cands) origins d <= sunlit_exact cands origins d.
Proof.
  intros c cands origins d H. apply sunlit_of_antitone; [|destruct origins; [contradiction | cbn; lia]].
  apply filter_length_mono. intros o. apply C12_blocked_monotone, incl_tl, incl_refl.
Qed.

(* the factor: mean over the hours of (f * beam + diffuse) / (beam + diffuse), in [0,1] ... *)
Theorem C12_fsh_range : forall hs, hs <> [] -> (forall h, In h hs -> hour_sane h) -> 0 <= fsh hs <= 1.
Proof. intros hs Hne H. apply plain_mean_between; [exact Hne | intros h Hh; apply hour_factor_range, H, Hh]. Qed.
(* ... monotone in every hourly sunlit fraction (so adding an obstacle never increases it, and two
   decimals keep that: round2 is monotone) ... *)
Theorem C12_fsh_monotone : forall hs hs',
  Forall2 (fun a b => same_weights a b /\ 0 <= hr_dir a /\ 0 < hr_dir a + hr_dif a /\ hr_f a <= hr_f b) hs hs' ->
  fsh hs <= fsh hs'.
Proof.
  intros hs hs' H. unfold fsh. replace (length hs') with (length hs) by (induction H; cbn; congruence).
  apply Qdiv_le_compat_r; [change 0 with (inject_Z 0); rewrite <- Zle_Qle; lia|].
  induction H as [|a b l l' [Hw [Hd [Hs Hf]]] _ IH]; [apply Qle_refl|]. cbn [map]. rewrite !qsum_cons.
  pose proof (hour_factor_mono a b Hw Hd Hs Hf). lra.
Qed.
Theorem C12_round2_monotone : forall x y, x <= y -> round2 x <= round2 y.
Proof. exact round2_mono. Qed.
(* ... 1 when nothing hides the window, the diffuse share when it is hidden at every hour *)
Theorem C12_fsh_unobstructed : forall hs, hs <> [] ->
  (forall h, In h hs -> hr_f h == 1 /\ 0 < hr_dir h + hr_dif h) -> fsh hs == 1.
Proof.
  intros hs Hne H. enough (1 <= fsh hs <= 1) by lra. apply plain_mean_between; [exact Hne|].
  intros h [F S]%H. assert (E : hour_factor h == 1) by (unfold hour_factor; rewrite F; field; lra). lra.
Qed.
Theorem C12_fsh_hidden : forall hs, (forall h, In h hs -> hr_f h == 0) ->
  fsh hs == qsum (map (fun h => hr_dif h / (hr_dir h + hr_dif h)) hs) / inject_Z (Z.of_nat (length hs)).
Proof.
  intros hs H. unfold fsh. rewrite (qsum_map_ext hour_factor (fun h => hr_dif h / (hr_dir h + hr_dif h))); [reflexivity|].
  intros h Hh. unfold hour_factor, Qdiv. rewrite (H h Hh). lra.
Qed.

(* non-vacuity: a 1 x 1 screen one metre in front of a sample point hides it, not its neighbour *)
Definition screen := mkOcc 5%N None (mkPose (mkV 0 (-1) 0) 1 0 0 1) [(0, 0); (1, 0); (1, 1); (0, 1)].
Example C12_example :
  sunlit_exact [screen] [mkV (1#2) 0 (1#2); mkV 3 0 (1#2)] (mkV 0 (-1) 0) == 1 # 2 /\
  fsh [mkHour (1#2) 300 100; mkHour 1 0 50] == 13 # 16.
Proof. split; vm_compute; reflexivity. Qed.
