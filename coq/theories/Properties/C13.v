(* C13 — ray casting: accelerated queries equal exhaustive ones and match exact geometry.
   The theorems are about Model/Bvh.v (the generic tree, its traversal and construction), Model/Aabb.v (the slab
   test), Model/Poly.v (poses, point in polygon, reveal surfaces) and Model/Raycast.v (validation of a dumped tree,
   the code's construction of the reveals). *)
From Coq Require Import QArith List Permutation Lqa.
From CTE Require Import Model.Aabb Model.Poly Model.Bvh Model.Raycast Proofs.ListP Proofs.AabbP Proofs.BvhP Proofs.RaycastP.
Import ListNotations.
Local Open Scope Q_scope.

(* for ANY element type, boxes and hit tests such that a hit element has its box hit, and ANY tree
   whose boxes cover what is below them - any number of elements, duplicates, any shape - the
   accelerated answer is the answer of testing every obstacle one by one *)
Theorem C13_bvh_complete :
  forall (T aabb ray : Type) (box : T -> aabb) (hit : T -> ray -> bool) (bhit : aabb -> ray -> bool)
         (join : aabb -> aabb -> aabb) (e0 : aabb),
  (forall e r, hit e r = true -> bhit (box e) r = true) ->
  forall (t : tree T aabb) es r,
  wf T aabb ray box bhit t -> Permutation (elems T aabb t) es ->
  blocked_tree T aabb ray hit bhit t r = blocked_list T ray hit es r.
Proof. intros T aabb ray box hit bhit _ _. exact (bvh_complete T aabb ray box hit bhit). Qed.

(* construction with a split that makes progress terminates (fuel = number of elements + 1 is
   enough) and yields such a tree: none, one or many elements, coinciding centres included *)
Theorem C13_build_correct :
  forall (T aabb ray : Type) (box : T -> aabb) (hit : T -> ray -> bool) (bhit : aabb -> ray -> bool)
         (join : aabb -> aabb -> aabb) (e0 : aabb),
  (forall e r, hit e r = true -> bhit (box e) r = true) ->
  (forall a b r, bhit a r = true -> bhit (join a b) r = true /\ bhit (join b a) r = true) ->
  forall (part : list T -> list T * list T) maxn es r, progressive T part maxn ->
  exists t, build T aabb box join e0 part (S (length es)) maxn es = Some t /\
            blocked_tree T aabb ray hit bhit t r = blocked_list T ray hit es r.
Proof.
  intros T aabb ray box hit bhit join e0 Hb Hj part maxn es r Hp.
  destruct (build_wf T aabb ray box bhit join e0 Hj part maxn Hp (S (length es)) es) as [t [Hbd [Hw Hperm]]]; [auto | auto with arith |].
  exists t. split; [exact Hbd | apply (bvh_complete T aabb ray box hit bhit Hb); assumption].
Qed.

(* the split of the code (partition by ANY predicate, halving when one side is empty) makes progress *)
Theorem C13_split_progress : forall (T : Type) (p : list T -> T -> bool) maxn,
  (1 <= maxn)%nat -> progressive T (part_fb p) maxn.
Proof. exact @part_fb_progressive. Qed.

(* the exact slab test decides "the ray meets the box at some t >= 0"; joins never lose a ray *)
Theorem C13_slab_spec : forall b r, proper b -> (bhitq b r = true <-> hits b r).
Proof. exact bhitq_spec. Qed.
Theorem C13_join_monotone : forall a b r, proper a ->
  bhitq a r = true -> bhitq (box_join a b) r = true /\ bhitq (box_join b a) r = true.
Proof.
  intros a b r Pa H. split; [apply (box_le_bhit a _ r Pa (box_join_le_l a b) H) | apply (box_le_bhit a _ r Pa (box_join_le_r b a) H)].
Qed.

(* a tree dumped from the implementation that passes the boolean validation answers every ray like
   the exhaustive test over its elements *)
Theorem C13_validated_tree : forall (t : btree) es r,
  wf_treeb t = true -> Permutation (elems elt aabbq t) es ->
  blocked_tree elt aabbq rayq ehit bhitq t r = blocked_list elt rayq ehit es r.
Proof. intros t es r Hw. apply (bvh_complete elt aabbq rayq ebox ehit bhitq (fun e q H => H)), (wf_treeb_sound t Hw). Qed.

(* the bounding box of a polygon contains all its corners *)
Theorem C13_aabb_contains_corners : forall first l p, In p (first :: l) -> inside (aabb_of_points first l) p.
Proof.
  intros first l p Hin.
  apply (fold_join_has box_join (fun v => mkBox v v) (fun b => inside b p) (fun a b => inside_join a b p)).
  assert (Hp : inside (mkBox p p) p) by (unfold inside; cbn; lra).
  destruct Hin as [<-|Hin]; [left; exact Hp | right; exists p; auto].
Qed.

(* poses (position, tilt, azimuth) are exact isometries: whatever the polygon's position, tilt and
   azimuth, going to polygon coordinates and back is the identity and dot products are preserved *)
Theorem C13_pose_inverse : forall p v, unit_pose p -> veq (to_local p (to_global p v)) v.
Proof.
  intros p v [Ha Ht]. unfold to_local, to_global, rot_local, rot_global.
  rewrite vadd_vsub, (rot_z_back _ _ _ Ha). apply rot_x_back, Ht.
Qed.
Theorem C13_pose_dot : forall p a b, unit_pose p -> vdot (rot_global p a) (rot_global p b) == vdot a b.
Proof. intros p a b [Ha Ht]. unfold rot_global. rewrite (rot_z_dot _ _ _ _ Ha). apply rot_x_dot, Ht. Qed.
Theorem C13_pip_translate : forall q poly d,
  point_in_poly (shift d q) (map (shift d) poly) = point_in_poly q poly.
Proof.
  intros q [|v r] d; [reflexivity|]. unfold point_in_poly. cbn [map]. change (shift d v :: map (shift d) r) with (map (shift d) (v :: r)).
  rewrite last_map. apply pip_loop_shift.
Qed.

(* reveal surfaces span exactly the gap between wall plane (z = 0) and window plane (z = -s) along
   the four edges, for every wall pose *)
Theorem C13_overhang : forall p x y w h s,
  quad_eq (code_overhang p x y w h s) (map (to_global p) (reveal_top x y w h s)).
Proof.
  intros p x y w h s. apply (sub_pose_quad p _ _ _ _ _ (fun q => q) (fun q => mkV (fst q) 0 (snd q))).
  - (* tilt + 90 degrees: the outline's second axis runs along the wall's z *)
    intros q. unfold rot_global. f_equiv. unfold veq, rot_x, corner3. cbn [vx vy vz]. repeat split; lra.
  - cbn. unfold veq, vadd. cbn [vx vy vz]. repeat split; lra.
Qed.
Theorem C13_sill : forall p x y w h s,
  quad_eq (code_sill p x y w h s) (map (to_global p) (reveal_sill x y w h s)).
Proof.
  intros p x y w h s. apply (sub_pose_quad p _ _ _ _ _ (fun q => q) (fun q => mkV (fst q) 0 (- snd q))).
  - (* tilt - 90 degrees: the outline's second axis runs against the wall's z *)
    intros q. unfold rot_global. f_equiv. unfold veq, rot_x, corner3. cbn [vx vy vz]. repeat split; lra.
  - cbn. unfold veq, vadd. cbn [vx vy vz]. repeat split; lra.
Qed.
Theorem C13_left_fin : forall p x y w h s,
  quad_eq (code_left_fin p x y w h s) (map (to_global p) (reveal_left x y w h s)).
Proof.
  intros p x y w h s. apply (sub_pose_quad p _ _ _ _ _ (fun q => fin_pt p (fst q) (snd q)) (fun q => mkV 0 (snd q) (- fst q))).
  - intros q. unfold veq, rot_global, rot_z, rot_x, corner3, fin_pt. cbn [vx vy vz fst snd]. repeat split; lra.
  - cbn. unfold veq, vadd. cbn [vx vy vz]. repeat split; lra.
Qed.
Theorem C13_right_fin : forall p x y w h s,
  quad_eq (code_right_fin p x y w h s) (map (to_global p) (reveal_right x y w h s)).
Proof.
  intros p x y w h s. apply (sub_pose_quad p _ _ _ _ _ (fun q => rfin_pt p (fst q) (snd q)) (fun q => mkV 0 (snd q) (fst q))).
  - intros q. unfold veq, rot_global, rot_z, rot_x, corner3, rfin_pt. cbn [vx vy vz fst snd]. repeat split; lra.
  - cbn. unfold veq, vadd. cbn [vx vy vz]. repeat split; lra.
Qed.
(* the construction used before the repair was right for vertical walls only *)
Theorem C13_old_fin_vertical : forall p x y w h s, p_ct p == 0 -> p_st p == 1 ->
  quad_eq (old_left_fin p x y w h s) (map (to_global p) (reveal_left x y w h s)).
Proof.
  intros p x y w h s Hc Hs. apply (sub_pose_quad p _ _ _ _ _ (fun q => q) (fun q => mkV 0 (snd q) (- fst q))).
  - intros q. unfold rot_global. rewrite Hc, Hs. unfold veq, rot_z, rot_x, corner3. cbn [vx vy vz]. repeat split; lra.
  - cbn. unfold veq, vadd. cbn [vx vy vz]. repeat split; lra.
Qed.
Theorem C13_old_fin_refuted :
  unit_pose roof_pose /\
  ~ quad_eq (old_left_fin roof_pose 1 1 1 1 (1 # 2)) (map (to_global roof_pose) (reveal_left 1 1 1 1 (1 # 2))).
Proof.
  split; [split; reflexivity|]. intros [_ [[H _] _]]. vm_compute in H. discriminate H.
Qed.

(* non-vacuity: a ray towards the unit box hits it, one away from it misses; a point inside and one outside a square;
   a ray through a vertical square *)
Definition unit_box := mkBox (mkV 0 0 0) (mkV 1 1 1).
Example C13_example :
  bhitq unit_box (mkRay (mkV (-1) (1#2) (1#2)) (mkV 1 0 0)) = true /\
  bhitq unit_box (mkRay (mkV (-1) (1#2) (1#2)) (mkV (-1) 0 0)) = false /\
  point_in_poly (1#2, 1#2) [(0,0); (1,0); (1,1); (0,1)] = true /\
  point_in_poly (2, 1#2) [(0,0); (1,0); (1,1); (0,1)] = false /\
  ray_hits_poly (mkPose (mkV 0 0 0) 1 0 0 1) [(0,0); (2,0); (2,2); (0,2)] (mkRay (mkV 1 (-3) 1) (mkV 0 1 0)) = true.
Proof. repeat split; reflexivity. Qed.
