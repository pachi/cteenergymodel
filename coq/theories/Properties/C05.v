(* C05 — export and indicators are deterministic, reproducible and history-independent (partial:
   the theorems are about a process whose operations only read the shared state, Model/History.v; that
   the code is such a process is a syntactic obligation over the regenerated inventory of its statics,
   and the run-time behaviour (threads, fresh processes, HashMap order, md5 of Debug text) is covered
   by the correspondence only). *)
From Coq Require Import NArith List.
From CTE Require Import Model.History Proofs.HistoryP.
Import ListNotations.

(* whatever ran before, every operation returns what it returns alone from the initial state *)
Theorem C05_history_independent : forall (state op out : Type) (step : state -> op -> state * out),
  read_only step -> forall s0 h, snd (run step s0 h) = map (alone step s0) h.
Proof. intros state op out step RO s0 h. rewrite run_read_only by exact RO. reflexivity. Qed.

(* any two schedules of the same operations give each operation the same output *)
Theorem C05_schedule_independent : forall (state op out : Type) (step : state -> op -> state * out),
  read_only step -> forall s0 h1 h2 o x,
  In (o, x) (combine h1 (snd (run step s0 h1))) -> In o h2 -> In (o, x) (combine h2 (snd (run step s0 h2))).
Proof.
  intros state op out step RO s0 h1 h2 o x. rewrite !run_read_only by exact RO. cbn [snd].
  rewrite !combine_map_r, !in_map_iff. intros [? [[= -> <-] _]] H2. exists o. auto.
Qed.

(* hence the observations of any set of histories pass the test the correspondence applies *)
Theorem C05_observations_functional : forall (state op out : Type) (step : state -> op -> state * out) key dig,
  read_only step -> (forall o1 o2, key o1 = key o2 -> o1 = o2) ->
  forall s0 (hs : list (list op)),
    functionalb (concat (map (fun h => observe key dig h (snd (run step s0 h))) hs)) = true.
Proof.
  intros state op out step key dig RO Kinj s0 hs.
  rewrite (map_ext _ _ (fun h => observe_read_only step key dig s0 h RO)), <- concat_map.
  apply functionalb_map. cbn. intros a b ->%Kinj. reflexivity.
Qed.

(* ids that are a function of the element's own definition survive any added definitions *)
Theorem C05_ids_local : forall (el : Type) (key id : el -> N) proj extra,
  ids_kept (map (fun e => mkObs (key e) (id e)) proj) (map (fun e => mkObs (key e) (id e)) (proj ++ extra)) = true.
Proof.
  intros el key id proj extra. unfold ids_kept. apply forallb_forall. intros a Ha.
  apply existsb_exists. exists a. rewrite map_app, in_app_iff, !N.eqb_refl. auto.
Qed.

(* obligation on the regenerated inventory of /repo's process-wide state (coq/gen/Globals.v):
   only the three climate tables and the embedded catalogue, no static mut, no lock taken mutably *)
Theorem C05_shared_state_read_only : shared_state_read_only = true.
Proof. vm_compute. reflexivity. Qed.

(* non-vacuity: a machine that caches its first answer fails the observation test *)
Example C05_example :
  functionalb (observe (fun o => o) (fun x => x) [1;2]%N (snd (run cache_step None [1;2]%N)) ++
               observe (fun o => o) (fun x => x) [2]%N (snd (run cache_step None [2]%N))) = false.
Proof. reflexivity. Qed.
