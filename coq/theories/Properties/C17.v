(* C17 — schedules: exact calendar partition, weekday alignment, occupancy and load means (Model/Schedules.v);
   the notions the statements use beside the model's (week_at, runs_days, increasing_from, prefix_sums …) are in Proofs/SchedulesP.v. *)
From Coq Require Import ZArith NArith QArith Bool List Arith Lqa.
From CTE Require Import Model.BModel Model.Schedules Proofs.ListP Proofs.NumP Proofs.SchedulesP.
Import ListNotations.

(* a yearly schedule expands to as many days as its period lengths add up to *)
Theorem C17_expand_length : forall db id y,
  get_year db id = Some y -> weeks_nonempty db (sc_values y) ->
  length (expand db id) = counts_sum (sc_values y).
Proof. intros db id y Hy H. unfold expand. rewrite Hy. apply expand_from_length, H. Qed.

(* each day takes the weekday slot (year starting on a Monday = slot 0) of the weekly schedule of
   the period it falls in *)
Theorem C17_expand_weekday : forall db id y d,
  get_year db id = Some y -> weeks_7 db (sc_values y) -> (d < counts_sum (sc_values y))%nat ->
  exists wid, week_at (sc_values y) d = Some wid /\
    nth d (expand db id) 0%N = nth (d mod 7) (week_days_of db wid) 0%N.
Proof. intros db id y d Hy H7 Hd. unfold expand. rewrite Hy. exact (expand_from_weekday db (sc_values y) 0 d H7 Hd). Qed.

(* the day-of-year used for HULC end dates is the calendar's, for all 365 dates *)
Theorem C17_day_of_year_calendar : forall m d,
  valid_date m d = true -> day_of_year d m = (cum_days m + d)%Z.
Proof. exact day_of_year_calendar. Qed.

(* end dates are converted into periods that partition the year exactly at those dates *)
Theorem C17_end_dates_partition : forall ends,
  increasing_from 0 ends -> last ends 0%Z = 365%Z ->
  zsum (periods ends) = 365%Z /\ Forall (fun p => (0 < p)%Z) (periods ends) /\
  prefix_sums 0 (periods ends) = ends /\ length (periods ends) = length ends.
Proof.
  intros ends Hinc Hlast. unfold periods. rewrite zsum_periods, Hlast.
  repeat split; [apply periods_from_pos, Hinc | apply prefix_sums_periods | apply periods_from_length].
Qed.

(* weekly schedules become runs covering the 7 days, daily ones 24 values *)
Theorem C17_week_runs : forall names v, week_runs names = Some v ->
  (length names = 7%nat -> runs_days v = names) /\
  (forall x, names = [x] -> runs_days v = repeat x 7) /\ length (runs_days v) = 7%nat.
Proof.
  intros names v. unfold week_runs. destruct names as [|x [|y r]]; [discriminate | intros [= <-] |].
  - repeat split; [discriminate | intros ? [= ->]; reflexivity].
  - destruct (Nat.eqb_spec (length (x :: y :: r)) 7) as [H7|]; [intros E | discriminate].
    replace v with (rle_from x 1 (y :: r)) by congruence.
    rewrite rle_from_expand. repeat split; [discriminate | exact H7].
Qed.
Theorem C17_day_values : forall vals v, day_values vals = Some v ->
  length v = 24%nat /\ (length vals = 24%nat -> v = vals) /\ (forall x, vals = [x] -> v = repeat x 24).
Proof.
  intros vals v. unfold day_values. destruct vals as [|x [|y r]]; [discriminate | intros [= <-] |].
  - repeat split; [discriminate | intros ? [= ->]; reflexivity].
  - destruct (Nat.eqb_spec (length (x :: y :: r)) 24) as [H24|]; [intros [= <-] | discriminate].
    repeat split; [exact H24 | discriminate].
Qed.

(* occupied time: an hour counts exactly when some listed daily schedule is non-zero in it,
   whatever the order or multiplicity of the day's schedules *)
Theorem C17_hours_of_day : forall db ids,
  hours_of_day db ids = length (filter (fun h => existsb (fun id => day_nonzero db id h) ids) (seq 0 24)) /\
  (hours_of_day db ids <= 24)%nat.
Proof. intros db ids. split; [reflexivity | apply (filter_length_le _ hours24)]. Qed.
Theorem C17_hours_same_set : forall db ids ids',
  (forall x, In x ids <-> In x ids') -> hours_of_day db ids = hours_of_day db ids'.
Proof.
  intros db ids ids' H. unfold hours_of_day. f_equal. apply filter_ext. intros h.
  apply eq_iff_eq_true. rewrite !existsb_exists. split; intros [x [Hx Hn]]; exists x; (split; [apply H, Hx | exact Hn]).
Qed.
Theorem C17_hours_none : forall m sps, occ_people_schedules m sps = [] -> hours_in_use m sps = 0%N.
Proof. intros m sps H. unfold hours_in_use. rewrite H. reflexivity. Qed.

(* the mean internal load is the floor-area-weighted mean over the occupied spaces *)
Theorem C17_avg_load_weighted : forall m sps t a,
  occ_load_sum m sps = Some t -> avg_load m sps = Some a -> ((1 # 8388608) < occ_area sps)%Q ->
  (a * occ_area sps == t)%Q.
Proof.
  intros m sps t a Ht Ha Hpos. unfold avg_load in Ha. rewrite Ht in Ha.
  destruct (qltb_spec (1 # 8388608) (occ_area sps)); [|lra]. injection Ha as <-. field. lra.
Qed.
Theorem C17_loads_avg_formula : forall m l p li e,
  opt_avg (m_sched m) (ld_people_sch l) = Some p -> opt_avg (m_sched m) (ld_light_sch l) = Some li ->
  opt_avg (m_sched m) (ld_equip_sch l) = Some e ->
  loads_avg m l = Some (p * ld_people_sens l + li * ld_light l + e * ld_equip l)%Q.
Proof. intros m l p li e H1 H2 H3. unfold loads_avg. rewrite H1, H2, H3. reflexivity. Qed.

(* non-vacuity: Jan..Feb on week A (5+2 days), rest of the year on week B *)
Definition exdb : scheddb :=
  mkSchedDb [mkSched 1%N [(10%N, 59%N); (11%N, 306%N)]]
            [mkSched 10%N [(20%N, 5%N); (21%N, 2%N)]; mkSched 11%N [(21%N, 7%N)]]
            [mkSchedDay 20%N (repeat 1%Q 24); mkSchedDay 21%N (repeat 0%Q 24)].
Example C17_example :
  length (expand exdb 1%N) = 365%nat /\ nth 5 (expand exdb 1%N) 0%N = 21%N /\ nth 7 (expand exdb 1%N) 0%N = 20%N /\
  periods [day_of_year 28 2; day_of_year 31 12] = [59; 306]%Z.
Proof. repeat split; reflexivity. Qed.
