(* C09 — n50 follows the DB-HE air-permeability formula (Model/N50.v). *)
From Coq Require Import NArith QArith Bool List Permutation Lqa.
From CTE Require Import Model.BModel Model.Props Model.N50 Proofs.ListP Proofs.NumP Proofs.KP Proofs.N50P.
Import ListNotations.
Local Open Scope Q_scope.

Theorem C09_n50_ref_formula : forall p,
  (1 # 1000) < gp_vol_net (ep_global p) ->
  nd_n50_ref (N50_model p) ==
  (629 # 1000) * (gp_co100 (ep_global p) * n50_walls_a p + n50_windows_ca p) / gp_vol_net (ep_global p).
Proof.
  intros p H. rewrite n50_ref_eq. destruct (qltb_spec (1 # 1000) (gp_vol_net (ep_global p))); [|lra].
  unfold n50_coef. field. lra.
Qed.

Theorem C09_zero_volume : forall p, gp_vol_net (ep_global p) <= (1 # 1000) -> nd_n50_ref (N50_model p) = 0.
Proof. intros p H%qltb_ge. rewrite n50_ref_eq, H. reflexivity. Qed.

Theorem C09_no_test : forall p,
  gp_n50test (ep_global p) = None ->
  nd_n50 (N50_model p) = nd_n50_ref (N50_model p) /\ nd_walls_c (N50_model p) = gp_co100 (ep_global p).
Proof. intros p H. unfold N50_model. rewrite H. split; reflexivity. Qed.

Theorem C09_test_consistent : forall p t,
  gp_n50test (ep_global p) = Some t ->
  (1 # 1000) < n50_walls_a p -> (1 # 1000) < gp_vol_net (ep_global p) ->
  nd_n50 (N50_model p) = t /\
  (629 # 1000) * (nd_walls_c (N50_model p) * n50_walls_a p + n50_windows_ca p) / gp_vol_net (ep_global p) == t.
Proof.
  intros p t Ht Ha Hv. unfold N50_model. rewrite Ht, (proj2 (qltb_lt _ _) Ha). cbn [nd_n50 nd_walls_c].
  split; [reflexivity|]. unfold n50_coef. field. split; lra.
Qed.

Theorem C09_test_no_walls : forall p t,
  gp_n50test (ep_global p) = Some t -> n50_walls_a p <= (1 # 1000) ->
  nd_n50 (N50_model p) = t /\ nd_walls_c (N50_model p) = gp_co100 (ep_global p).
Proof. intros p t Ht Ha%qltb_ge. unfold N50_model. rewrite Ht, Ha. split; reflexivity. Qed.

Theorem C09_c100_default : forall p w, lookup (np_cons w) (ep_wincons p) = None -> win_c100 p w = 100.
Proof. intros p w H. unfold win_c100. rewrite H. reflexivity. Qed.
Theorem C09_c100_cons : forall p w c, lookup (np_cons w) (ep_wincons p) = Some c -> win_c100 p w = cp_c100 c.
Proof. intros p w c H. unfold win_c100. rewrite H. reflexivity. Qed.

(* exactly envelope elements in contact with outside air count *)
Theorem C09_air_wall_spec : forall w, air_wall w = true <-> wp_tenv (snd w) = true /\ wp_bounds (snd w) = EXTERIOR.
Proof. intros w. unfold air_wall. rewrite andb_true_iff, is_ext_spec. reflexivity. Qed.
Theorem C09_excludes : forall p ws1 w ws2,
  ep_walls p = ws1 ++ w :: ws2 -> air_wall w = false -> N50_model (with_walls p (ws1 ++ ws2)) = N50_model p.
Proof.
  intros p ws1 w ws2 Hw He. apply N50_model_airset. unfold airset. rewrite Hw. symmetry. apply filter_app_mid, He.
Qed.

Theorem C09_permutation : forall p p',
  ep_global p = ep_global p' -> ep_wincons p = ep_wincons p' ->
  Permutation (ep_walls p) (ep_walls p') -> Permutation (ep_windows p) (ep_windows p') ->
  n50_walls_a p == n50_walls_a p' /\ n50_windows_a p == n50_windows_a p' /\ n50_windows_ca p == n50_windows_ca p'.
Proof.
  intros p p' _ Hc Hw Hn.
  assert (Hset : Permutation (airset p) (airset p')) by apply perm_filter, Hw.
  assert (Hwins : forall id, Permutation (wins_of p id) (wins_of p' id)) by (intros id; apply perm_filter, Hn).
  unfold n50_walls_a, n50_windows_a, n50_windows_ca, win_c100. rewrite <- Hc.
  repeat split; apply qsum_map_perm; try exact Hset; intros w _.
  1: reflexivity.
  all: apply Qmult_comp; [|reflexivity]; apply qsum_perm, Permutation_map, Hwins.
Qed.

(* non-vacuity: 100 m2 of exterior envelope wall (multiplier 2 on 50), a 4 m2 window without
   construction, a ground wall that must not count, V = 250 *)
Definition ex_w b a := mkWallP 1%N None b 2%N O_S SIDE a a 2 true None None.
Definition ex09 : eprops :=
  mkEProps (mkGlobalP 100 300 250 250 1 None 16)
    [(10%N, ex_w EXTERIOR 50); (11%N, ex_w GROUND 70)]
    [(20%N, mkWinP 3%N 10%N O_S SIDE 2 2 EXTERIOR true None None None None)] [] [] [].
Example C09_example :
  Qred (nd_n50_ref (N50_model ex09)) = Qred ((629 # 1000) * (16 * 100 + 100 * 4) / 250) /\
  (1 # 1000) < gp_vol_net (ep_global ex09).
Proof. split; [reflexivity | vm_compute; reflexivity]. Qed.
